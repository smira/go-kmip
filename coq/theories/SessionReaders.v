(* SessionReaders.v - the request loop of Server.serve on the reader objects of Readers.v: the
   connection hands out the peer's bytes in an arbitrary script of read sizes (one request per
   read, several requests in one read, single bytes, a request split anywhere) and the server's
   one persistent Decoder sits on NewDecoder's bufio.Reader.  The trace of the session is the one
   Session.v computes on the flat byte list: how the transport fragments the requests does not
   matter (C07 "one at a time or pipelined", session-level half of C06, C10). *)
From Coq Require Import String.
From Coq Require Import List ZArith.
Require Import Bytes Codec Readers ReadersProofs Session.
Import ListNotations.
Open Scope N_scope.

Section SessionOnReaders.
  Variable T : tyenv.
  Variable K : sconsts.

  (* request_step of Session.v with the decoder on reader objects *)
  Definition c_request_step (c : cfg) (st : cstate) (script : list behaviour)
    : list event * option (cstate * list behaviour) :=
    let arm := if c_read_to c then [EArmRead] else [] in
    match request_top T with
    | None => (arm ++ [EClose CloseError], None)
    | Some (tag, fl) =>
        match c_dec_top "Request" tag fl st with
        | (ErrEOF, _) => (arm ++ [EClose CloseEOF], None)
        | (Err, _) => (arm ++ [EClose CloseError], None)
        | (OutOfFuel, _) => (arm ++ [EOutOfFuel], None)
        | (Ok (req, _), st') =>
            let '(evs, oresp, script') := handle_batch T K c req script in
            match oresp with
            | None => (arm ++ evs ++ [EClose CloseError], None)
            | Some resp =>
                let armw := if c_write_to c then [EArmWrite] else [] in
                match enc_top T (VPtr resp) with
                | None => (arm ++ evs ++ armw ++ [EEncodeFailed; EClose CloseError], None)
                | Some b => (arm ++ evs ++ armw ++ [EWrote b], Some (st', script'))
                end
            end
        end
    end.

  Fixpoint c_serve_loop (fuel : nat) (c : cfg) (st : cstate) (script : list behaviour) : list event :=
    match fuel with
    | O => [EOutOfFuel]
    | S f =>
        let '(evs, k) := c_request_step c st script in
        evs ++ match k with
               | None => []
               | Some (st', script') => c_serve_loop f c st' script'
               end
    end.

  (* what the peer can observe: handler invocations, authentication events, responses *)
  Definition visible (e : event) : bool :=
    match e with
    | ECall _ _ _ _ _ | EWrote _ | EReqAuth _ _ | EEncodeFailed => true
    | _ => false
    end.

  Definition prefix {A} (l1 l2 : list A) : Prop := exists r, l2 = l1 ++ r.

  Lemma prefix_nil {A} (l : list A) : prefix [] l.
  Proof. exists l. reflexivity. Qed.
  Lemma prefix_refl {A} (l : list A) : prefix l l.
  Proof. exists []. symmetry. apply app_nil_r. Qed.
  Lemma prefix_app {A} (p l1 l2 : list A) : prefix l1 l2 -> prefix (p ++ l1) (p ++ l2).
  Proof. intros [r ->]. exists r. rewrite app_assoc. reflexivity. Qed.

  Lemma filter_arm c : filter visible (if c_read_to c then [EArmRead] else []) = [].
  Proof. destruct (c_read_to c); reflexivity. Qed.

  (* one request on any connection: the step is the flat one, unless the connection fails (does not just end)
     during the request - then the session closes with an error and nothing of the request has been acted on *)
  Lemma c_request_step_sim c st script : wf_c st ->
    match c_request_step c st script with
    | (evs, Some (st1, sc1)) =>
        request_step T K c (flat st) script = (evs, Some (flat st1, sc1)) /\ wf_c st1 /\ cshape st st1
    | (evs, None) =>
        request_step T K c (flat st) script = (evs, None) \/
        b_term (bs (rd st)) <> EOF /\ evs = (if c_read_to c then [EArmRead] else []) ++ [EClose CloseError]
    end.
  Proof.
    intros Hw. unfold c_request_step, request_step.
    destruct (request_top T) as [[tag fl]|]; [|left; reflexivity].
    destruct (c_dec_top "Request" tag fl st) as [x st'] eqn:E.
    apply decode_on_readers, sim_post_iff in E; [|exact Hw].
    destruct x as [[req n]| | |].
    - destruct E as (-> & Hw1 & Sh1). destruct (handle_batch T K c req script) as [[evs oresp] script'].
      destruct oresp as [resp|]; [|left; reflexivity]. destruct (enc_top T (VPtr resp)); [|left; reflexivity]. auto.
    - rewrite E. left. reflexivity.
    - destruct (b_term (bs (rd st))); [rewrite E by reflexivity; left; reflexivity|right; split; [discriminate|reflexivity]].
    - rewrite E. left. reflexivity.
  Qed.

  Lemma c_request_step_flat c st script :
    wf_c st -> b_term (bs (rd st)) = EOF ->
    match c_request_step c st script, request_step T K c (flat st) script with
    | (evs, None), (evs', None) => evs = evs'
    | (evs, Some (st1, sc1)), (evs', Some (st1', sc1')) =>
        evs = evs' /\ sc1 = sc1' /\ flat st1 = st1' /\ wf_c st1 /\ b_term (bs (rd st1)) = EOF
    | _, _ => False
    end.
  Proof.
    intros Hw Ht. pose proof (c_request_step_sim c st script Hw) as R.
    destruct (c_request_step c st script) as [evs [[st1 sc1]|]].
    - destruct R as (-> & Hw1 & Tm & _). do 3 (split; [reflexivity|]). split; [exact Hw1|]. (* the transport stays *) congruence.
    - destruct R as [-> | [Hn _]]; [reflexivity|contradiction].
  Qed.

  (* the whole loop: the flat trace, unless the connection fails during some request - then the trace up to
     that request, and the error close *)
  Lemma c_serve_loop_sim fuel : forall c st script, wf_c st ->
    c_serve_loop fuel c st script = serve_loop T K fuel c (flat st) script \/
    b_term (bs (rd st)) <> EOF /\
    exists p q, c_serve_loop fuel c st script = p ++ (if c_read_to c then [EArmRead] else []) ++ [EClose CloseError] /\
                serve_loop T K fuel c (flat st) script = p ++ q.
  Proof.
    induction fuel as [|f IH]; intros c st script Hw; cbn [c_serve_loop serve_loop]; [left; reflexivity|].
    pose proof (c_request_step_sim c st script Hw) as R.
    destruct (c_request_step c st script) as [evs [[st1 sc1]|]].
    - destruct R as (-> & Hw1 & Tm & _). destruct (IH c st1 sc1 Hw1) as [->|(Hn & p & q & -> & ->)]; [left; reflexivity|].
      right. split; [congruence|]. exists (evs ++ p), q. rewrite <- !app_assoc. auto.
    - destruct R as [-> | [Hn ->]]; [left; reflexivity|]. right. split; [exact Hn|].
      exists [], (serve_loop T K (S f) c (flat st) script). rewrite app_nil_r. auto.
  Qed.

  Theorem c_serve_loop_flat fuel : forall c st script,
    wf_c st -> b_term (bs (rd st)) = EOF ->
    c_serve_loop fuel c st script = serve_loop T K fuel c (flat st) script.
  Proof. intros c st script Hw Ht. destruct (c_serve_loop_sim fuel c st script Hw) as [E|[Hn _]]; [exact E|contradiction]. Qed.

  (* a connection that FAILS (I/O error at any offset) instead of ending: what the peer can observe
     is a prefix of what happens on the delivered bytes *)
  Theorem c_serve_loop_prefix fuel : forall c st script,
    wf_c st ->
    prefix (filter visible (c_serve_loop fuel c st script)) (filter visible (serve_loop T K fuel c (flat st) script)).
  Proof.
    intros c st script Hw. destruct (c_serve_loop_sim fuel c st script Hw) as [->|(_ & p & q & -> & ->)]; [apply prefix_refl|].
    rewrite !filter_app, filter_arm. apply prefix_app, prefix_nil.
  Qed.

  Corollary failing_connection_prefix fuel c conn script :
    transport_ok conn ->
    prefix (filter visible (c_serve_loop fuel c (new_decoder false conn) script))
           (filter visible (serve_loop T K fuel c {| rest := b_data conn; last := 0 |} script)).
  Proof.
    intros Hok. apply c_serve_loop_prefix, new_decoder_wf, Hok.
  Qed.

  (* the session after the handshake, on a connection that delivers [input] by ANY script of read sizes and then ends *)
  Definition c_session_body (c : cfg) (input : bytes) (sizes : list N) (weof : bool) (script : list behaviour) : list event :=
    let conn := new_decoder false {| b_data := input; b_sizes := sizes; b_weof := weof; b_term := EOF |} in
    match c_sess_auth c with
    | Some false => [ESessAuth false; EClose CloseError]
    | Some true => ESessAuth true :: c_serve_loop (S (List.length input)) c conn script
    | None => c_serve_loop (S (List.length input)) c conn script
    end.

  Theorem session_fragmentation_independent c input sizes weof script :
    stall_free sizes -> c_session_body c input sizes weof script = session_body T K c input script.
  Proof.
    intros Hsf. unfold c_session_body, session_body.
    set (b := {| b_data := input; b_sizes := sizes; b_weof := weof; b_term := EOF |}).
    pose proof (c_serve_loop_flat (S (List.length input)) c _ script (new_decoder_wf false b Hsf) eq_refl) as E.
    destruct (c_sess_auth c) as [[|]|]; [rewrite E; reflexivity|reflexivity|exact E].
  Qed.
End SessionOnReaders.
