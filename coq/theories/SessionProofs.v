(* SessionProofs.v - the session model of Session.v (C07, C08, C09, C10, C15): one iteration of the request loop is
   one of four cases; every trace has one shape, and what the theorems need of a trace is read off that shape event
   by event. *)
From Coq Require Import String.
From Coq Require Import List ZArith Lia.
Require Import Bytes Schema Codec CodecProofs Session.
Import ListNotations.
Open Scope N_scope.

Lemma vl_length_set i x l : vl_length (vl_set i x l) = vl_length l.
Proof. revert i; induction l as [|v r IH]; intros i; destruct i; cbn; auto. Qed.

Lemma vl_nth_set_same i x l : (i < vl_length l)%nat -> vl_nth i (vl_set i x l) = x.
Proof. revert i; induction l as [|v r IH]; intros i H; cbn in *; [lia|]. destruct i; [reflexivity|apply IH; lia]. Qed.

Lemma vl_nth_set_other i j x l : i <> j -> vl_nth i (vl_set j x l) = vl_nth i l.
Proof.
  revert i j; induction l as [|v r IH]; intros i j H; [destruct j; reflexivity|].
  destruct j, i; try reflexivity; try congruence. apply IH. congruence.
Qed.

Lemma field_index_range fl n k i : field_index fl n k = Some i -> (k <= i < k + vl_length (zeros_of fl))%nat.
Proof.
  revert k; induction fl as [|a s r IH]; intros k H; cbn in *; [discriminate|].
  destruct (String.eqb (fa_name a) n).
  - injection H as <-. lia.
  - apply IH in H. lia.
Qed.

Lemma field_index_inj fl n m k i : field_index fl n k = Some i -> field_index fl m k = Some i -> n = m.
Proof.
  revert k; induction fl as [|a s r IH]; intros k Hn Hm; cbn in *; [discriminate|].
  destruct (String.eqb_spec (fa_name a) n) as [En|En]; destruct (String.eqb_spec (fa_name a) m) as [Em|Em].
  - congruence.
  - injection Hn as <-. apply field_index_range in Hm. lia.
  - injection Hm as <-. apply field_index_range in Hn. lia.
  - eapply IH; eauto.
Qed.

(* keeps [cbn] from spelling the message strings out as byte lists *)
Local Opaque bytes_of.

Section Proofs.
  Variable T : tyenv.
  Variable K : sconsts.

  (* a value of struct type [ty] with as many components as [ty]'s zero value
     (no condition on an undeclared [ty]: nothing is a field of it) *)
  Definition struct_of (ty : string) (v : val) : Prop :=
    match T ty with
    | Some (_, fl) => exists vs, v = VStruct ty vs /\ vl_length vs = vl_length (zeros_of fl)
    | None => True
    end.

  Definition is_field (ty n : string) : bool :=
    match T ty with
    | Some (_, fl) => match field_index fl n 0 with Some _ => true | None => false end
    | None => false
    end.

  Lemma struct_zero ty : struct_of ty (zero_struct T ty).
  Proof.
    unfold struct_of, zero_struct. destruct (T ty) as [[tag fl]|]; [|exact I].
    exists (zeros_of fl). auto.
  Qed.

  Lemma struct_set ty v n x : struct_of ty v -> struct_of ty (set_field T v n x).
  Proof.
    unfold struct_of. destruct (T ty) as [[tag fl]|] eqn:HT; [|auto]. intros (vs & -> & Hl). cbn. rewrite HT.
    destruct (field_index fl n 0); [|eauto]. eexists. rewrite vl_length_set. eauto.
  Qed.

  (* reading a field of a struct after a write: stated for [apply], so that a chain of set_field is
     peeled off one step at a time and the (large) goal is never rewritten in *)
  Lemma get_set_other v n x m y : String.eqb n m = false -> get_field T v m = y -> get_field T (set_field T v n x) m = y.
  Proof.
    intros Hne <-. apply String.eqb_neq in Hne. destruct v; cbn; try reflexivity.
    destruct (T ty) as [[tag fl]|] eqn:HT; [|cbn; rewrite HT; reflexivity].
    destruct (field_index fl n 0) as [i|] eqn:Hi; cbn; rewrite HT; [|reflexivity].
    destruct (field_index fl m 0) as [j|] eqn:Hj; [|reflexivity].
    apply vl_nth_set_other. intros ->. apply Hne. eapply field_index_inj; eauto.
  Qed.

  Lemma get_set_same ty v n x : struct_of ty v -> is_field ty n = true -> get_field T (set_field T v n x) n = x.
  Proof.
    unfold struct_of, is_field. destruct (T ty) as [[tag fl]|] eqn:HT; [|discriminate]. intros (vs & -> & Hl).
    destruct (field_index fl n 0) as [i|] eqn:Hi; [intros _|discriminate]. cbn. rewrite HT, Hi. cbn. rewrite HT, Hi.
    apply vl_nth_set_same. apply field_index_range in Hi. lia.
  Qed.

  Definition item_op (item : val) : N := match get_field T item "Operation" with VEnum n => n | _ => 0 end.
  Definition scripted (c : cfg) (item : val) : bool := existsb (N.eqb (item_op item)) (c_ops c).

  (* the outcome the property assigns to each item, given the behaviours of the scripted handlers in call order *)
  Fixpoint outcomes (c : cfg) (items : list val) (script : list behaviour) : list outcome :=
    match items with
    | [] => []
    | it :: r =>
        if scripted c it then
          match script with
          | b :: rest => outcome_of K b :: outcomes c r rest
          | [] => OSuccess VNil :: outcomes c r []
          end
        else (if item_op it =? k_discover_versions K then builtin_dv T K c (get_field T it "RequestPayload")
              else OFailed (bytes_of "operation not supported") (k_not_supported K)) :: outcomes c r script
    end.

  (* the handler invocations: exactly the items with a registered handler, in item order, with that item's payload *)
  Definition calls (c : cfg) (rauth : option bytes) (items : list val) : list event :=
    map (fun it => ECall (c_sid c) (sauth_of c) rauth (item_op it) (get_field T it "RequestPayload"))
        (filter (scripted c) items).

  Lemma outcomes_length c items script : length (outcomes c items script) = length items.
  Proof.
    revert script; induction items as [|it r IH]; intros script; cbn; [reflexivity|].
    destruct (scripted c it); [destruct script|]; cbn; rewrite IH; reflexivity.
  Qed.

  (* each scripted item takes one behaviour off the script, as long as there is one *)
  Lemma handle_items_eq c rauth items script :
    handle_items T K c rauth items script =
    (calls c rauth items,
     map (fun p => response_item T K (fst p) (snd p)) (combine items (outcomes c items script)),
     skipn (length (filter (scripted c) items)) script).
  Proof.
    revert script. induction items as [|it r IH]; intros script; cbn [handle_items]; [reflexivity|].
    unfold handle_item. fold (item_op it). unfold calls. cbn [filter outcomes].
    change (existsb (N.eqb (item_op it)) (c_ops c)) with (scripted c it).
    destruct (scripted c it); [destruct script as [|b rest]|destruct (item_op it =? k_discover_versions K)];
      rewrite IH, ?skipn_nil; cbn; reflexivity.
  Qed.

  Lemma handle_items_spec c rauth items script :
    let '(evs, ritems, _) := handle_items T K c rauth items script in
    evs = calls c rauth items /\
    ritems = map (fun p => response_item T K (fst p) (snd p)) (combine items (outcomes c items script)).
  Proof. rewrite handle_items_eq. split; reflexivity. Qed.

  (* one response item per request item, in order *)
  Lemma handle_items_length c rauth items script :
    length (snd (fst (handle_items T K c rauth items script))) = length items.
  Proof. rewrite handle_items_eq. cbn. rewrite map_length, combine_length, outcomes_length. lia. Qed.

  (* independence: an item without a scripted handler gets its outcome whatever the script says,
     and the outcome of the j-th scripted item is the j-th behaviour alone *)
  Lemma outcomes_unscripted c items script script' :
    Forall (fun it => scripted c it = false) items -> outcomes c items script = outcomes c items script'.
  Proof.
    intros H; revert script script'; induction H as [|it r Hit _ IH]; intros s s'; cbn; [reflexivity|].
    rewrite Hit. f_equal. apply IH.
  Qed.

  Lemma outcomes_all_scripted c items script :
    Forall (fun it => scripted c it = true) items -> length script = length items ->
    outcomes c items script = map (outcome_of K) script.
  Proof.
    intros H; revert script; induction H as [|it r Hit _ IH]; intros s Hl; destruct s; cbn in *; try discriminate; [reflexivity|].
    rewrite Hit. f_equal. apply IH. lia.
  Qed.

  Definition req_header (req : val) : val := get_field T req "Header".
  Definition req_items (req : val) : list val :=
    match get_field T req "BatchItems" with VList vs => list_of_vl vs | _ => [] end.
  Definition req_auth_val (req : val) : val := get_field T (req_header req) "Authentication".
  Definition has_creds (req : val) : bool :=
    match get_field T (req_auth_val req) "CredentialType" with VEnum 0 => false | VEnum _ => true | _ => false end.
  Definition count_ok (req : val) : bool :=
    (match get_field T (req_header req) "BatchCount" with VInt z => z | _ => 0%Z end =? Z.of_nat (length (req_items req)))%Z.
  Definition is_async (req : val) : bool :=
    match get_field T (req_header req) "AsynchronousIndicator" with VBool true => true | _ => false end.
  (* the request-auth value of THIS request: nil if it carries no credentials *)
  Definition rauth_of (c : cfg) (req : val) : option bytes :=
    if has_creds req then req_auth_fn T (c_sid c) (req_auth_val req) else None.
  (* a request is processed iff it is consistent and, if it carries credentials, they are accepted by a configured callback *)
  Definition cleared (c : cfg) (req : val) : bool :=
    count_ok req && negb (is_async req) &&
    (negb (has_creds req) || (c_req_auth c && match req_auth_fn T (c_sid c) (req_auth_val req) with Some _ => true | None => false end)).

  Definition build_response (c : cfg) (req : val) (ritems : list val) : val :=
    let hdr := req_header req in
    let h0 := zero_struct T "ResponseHeader" in
    let h1 := set_field T h0 "Version" (get_field T hdr "Version") in
    let h2 := set_field T h1 "TimeStamp" (VTime (c_now c)) in
    let h3 := set_field T h2 "ClientCorrelationValue" (get_field T hdr "ClientCorrelationValue") in
    let h4 := set_field T h3 "BatchCount" (get_field T hdr "BatchCount") in
    set_field T (set_field T (zero_struct T "Response") "Header" h4) "BatchItems" (VList (vl_of_list ritems)).

  Definition is_call (e : event) : bool := match e with ECall _ _ _ _ _ => true | _ => false end.
  Definition is_wrote (e : event) : bool := match e with EWrote _ => true | _ => false end.

  (* handle_batch tests the asynchronous indicator by a match with a default branch, which stands thirteen times
     in the term; this is the only place where those cases are gone through, on a goal that holds nothing else *)
  Lemma if_vtrue {A} (v : val) (x y : A) :
    match v with VBool true => x | _ => y end = if match v with VBool true => true | _ => false end then x else y.
  Proof. destruct v as [| | |[|]| | | | | | | | |]; reflexivity. Qed.

  (* the local [go] of [Session.handle_batch]: the items are handled and the response is assembled *)
  Definition respond (c : cfg) (req : val) (evs0 : list event) (rauth : option bytes) (script : list behaviour)
    : list event * option val * list behaviour :=
    let '(evs, ritems, script') := handle_items T K c rauth (req_items req) script in
    (evs0 ++ evs, Some (build_response c req ritems), script').

  Lemma handle_batch_eq c req script :
    handle_batch T K c req script =
    if negb (count_ok req) then ([], None, script)
    else if is_async req then ([], None, script)
    else if has_creds req then
      if c_req_auth c then
        match req_auth_fn T (c_sid c) (req_auth_val req) with
        | Some tok => respond c req [EReqAuth (req_auth_val req) true] (Some tok) script
        | None => ([EReqAuth (req_auth_val req) false], None, script)
        end
      else ([], None, script)
    else respond c req [] None script.
  Proof.
    unfold is_async. rewrite <- if_vtrue.
    (* the conversion is an order of magnitude cheaper to check with [handle_batch] on the right *)
    symmetry. reflexivity.
  Qed.

  Lemma respond_spec c req evs0 rauth script :
    let '(evs, oresp, _) := respond c req evs0 rauth script in
    evs = evs0 ++ calls c rauth (req_items req) /\
    oresp = Some (build_response c req (map (fun p => response_item T K (fst p) (snd p))
                                            (combine (req_items req) (outcomes c (req_items req) script)))).
  Proof.
    unfold respond. rewrite handle_items_eq. auto.
  Qed.

  Lemma handle_batch_spec c req script :
    let '(evs, oresp, script') := handle_batch T K c req script in
    if cleared c req then
      evs = (if has_creds req then [EReqAuth (req_auth_val req) true] else []) ++ calls c (rauth_of c req) (req_items req) /\
      oresp = Some (build_response c req
                (map (fun p => response_item T K (fst p) (snd p))
                     (combine (req_items req) (outcomes c (req_items req) script))))
    else
      oresp = None /\ script' = script /\
      (evs = [] \/ evs = [EReqAuth (req_auth_val req) false]).
  Proof.
    rewrite handle_batch_eq. unfold cleared, rauth_of.
    destruct (count_ok req); [|cbn; auto]. destruct (is_async req); [cbn; auto|].
    destruct (has_creds req); [|apply respond_spec].
    destruct (c_req_auth c); [|cbn; auto].
    destruct (req_auth_fn T (c_sid c) (req_auth_val req)); [apply respond_spec|cbn; auto].
  Qed.

  Definition arm_r (c : cfg) : list event := if c_read_to c then [EArmRead] else [].
  Definition arm_w (c : cfg) : list event := if c_write_to c then [EArmWrite] else [].

  Inductive step_result (c : cfg) (st : dstate) (script : list behaviour) : list event -> option (dstate * list behaviour) -> Prop :=
  | SR_undecodable k :
      (* the next message does not decode (or the stream ended): close, nothing else *)
      (forall tag fl, request_top T = Some (tag, fl) -> forall r, dec_top "Request" tag fl st <> Ok r) ->
      step_result c st script (arm_r c ++ [EClose k]) None
  | SR_rejected tag fl req n st' evs k :
      request_top T = Some (tag, fl) -> dec_top "Request" tag fl st = Ok (req, n, st') ->
      cleared c req = false -> (evs = [] \/ evs = [EReqAuth (req_auth_val req) false]) ->
      step_result c st script (arm_r c ++ evs ++ [EClose k]) None
  | SR_unencodable tag fl req n st' ritems k :
      request_top T = Some (tag, fl) -> dec_top "Request" tag fl st = Ok (req, n, st') ->
      cleared c req = true ->
      ritems = map (fun p => response_item T K (fst p) (snd p)) (combine (req_items req) (outcomes c (req_items req) script)) ->
      enc_top T (VPtr (build_response c req ritems)) = None ->
      step_result c st script
        (arm_r c ++ ((if has_creds req then [EReqAuth (req_auth_val req) true] else []) ++ calls c (rauth_of c req) (req_items req))
               ++ arm_w c ++ [EEncodeFailed; EClose k]) None
  | SR_answered tag fl req n st' ritems b script' :
      request_top T = Some (tag, fl) -> dec_top "Request" tag fl st = Ok (req, n, st') ->
      cleared c req = true ->
      ritems = map (fun p => response_item T K (fst p) (snd p)) (combine (req_items req) (outcomes c (req_items req) script)) ->
      enc_top T (VPtr (build_response c req ritems)) = Some b ->
      step_result c st script
        (arm_r c ++ ((if has_creds req then [EReqAuth (req_auth_val req) true] else []) ++ calls c (rauth_of c req) (req_items req))
               ++ arm_w c ++ [EWrote b]) (Some (st', script')).

  Lemma request_step_spec c st script :
    let '(evs, k) := request_step T K c st script in step_result c st script evs k.
  Proof.
    unfold request_step. fold (arm_r c).
    destruct (request_top T) as [[tag fl]|] eqn:Htop.
    2:{ (* no descriptor for Request *) apply SR_undecodable. intros tag fl H; rewrite Htop in H; discriminate. }
    destruct (dec_top "Request" tag fl st) as [[[req n] st']| | |] eqn:Hdec.
    2,3:((* io.EOF, an error *) apply SR_undecodable; intros tag' fl' H r; rewrite Htop in H; injection H as <- <-; rewrite Hdec; discriminate).
    2:{ (* out of fuel *) exfalso. exact (dec_top_total _ _ _ _ Hdec). }
    pose proof (handle_batch_spec c req script) as Hb.
    destruct (handle_batch T K c req script) as [[evs oresp] script'].
    destruct (cleared c req) eqn:Hadm.
    - destruct Hb as [-> ->].
      destruct (enc_top T (VPtr (build_response c req _))) as [b|] eqn:Henc.
      + eapply SR_answered; eauto.
      + eapply SR_unencodable; eauto.
    - destruct Hb as [-> [-> Hev]]. eapply SR_rejected; eauto.
  Qed.

  Definition is_close (e : event) : bool := match e with EClose _ => true | _ => false end.
  (* events that belong to the processing of one cleared request *)
  Definition req_event (c : cfg) (e : event) : Prop :=
    match e with
    | EReqAuth _ _ => True
    | ECall sid sa _ _ _ => sid = c_sid c /\ sa = sauth_of c
    | _ => False
    end.
  (* events that may precede the final close *)
  Definition tail_event (c : cfg) (e : event) : Prop :=
    match e with
    | EArmWrite => c_write_to c = true
    | EEncodeFailed => True
    | _ => req_event c e
    end.

  (* the shape of every session trace: per request, the read deadline is armed iff configured, then
     the request's own events, then - iff configured - the write deadline, then exactly one response;
     a request that is not answered is followed by Close and nothing else *)
  Inductive trace_ok (c : cfg) : list event -> Prop :=
  | TO_final mid k : Forall (tail_event c) mid -> trace_ok c (arm_r c ++ mid ++ [EClose k])
  | TO_answered mid b rest :
      Forall (req_event c) mid -> trace_ok c rest ->
      trace_ok c (arm_r c ++ mid ++ arm_w c ++ EWrote b :: rest).

  Lemma calls_req_event c ra items : Forall (req_event c) (calls c ra items).
  Proof. unfold calls. apply Forall_forall. intros e He. apply in_map_iff in He. destruct He as [it [<- _]]. cbn. auto. Qed.

  Lemma req_tail c e : req_event c e -> tail_event c e.
  Proof. destruct e; cbn; tauto. Qed.

  (* the two constructors of trace_ok, in the bracketing in which step_result and serve_loop produce the lists
     (with empty segments and [e] ++ l for e :: l these are the shapes of all four cases, up to conversion) *)
  Lemma trace_final c m1 m2 m3 k :
    Forall (tail_event c) m1 -> Forall (tail_event c) m2 -> Forall (tail_event c) m3 ->
    trace_ok c (arm_r c ++ m1 ++ m2 ++ m3 ++ [EClose k]).
  Proof. intros H1 H2 H3. rewrite (app_assoc m2), (app_assoc m1). apply TO_final. rewrite !Forall_app. auto. Qed.

  Lemma trace_answered c mid b rest :
    Forall (req_event c) mid -> trace_ok c rest -> trace_ok c ((arm_r c ++ mid ++ arm_w c ++ [EWrote b]) ++ rest).
  Proof. intros Hm Hr. rewrite <- !app_assoc. apply TO_answered; assumption. Qed.

  Lemma req_events_ok c req :
    Forall (req_event c) ((if has_creds req then [EReqAuth (req_auth_val req) true] else []) ++ calls c (rauth_of c req) (req_items req)).
  Proof. apply Forall_app; split; [destruct (has_creds req); repeat constructor|apply calls_req_event]. Qed.

  Lemma serve_loop_trace_ok c : forall fuel st script,
    (length (rest st) < fuel)%nat -> trace_ok c (serve_loop T K fuel c st script).
  Proof.
    induction fuel as [|f IH]; intros st script Hlt; [lia|].
    cbn [serve_loop]. pose proof (request_step_spec c st script) as Hs.
    destruct (request_step T K c st script) as [evs k].
    destruct Hs as [k Hund | tag fl req n st' evs k Htop Hdec Hadm Hev | tag fl req n st' ritems k Htop Hdec Hadm Hri Henc
                   | tag fl req n st' ritems b script' Htop Hdec Hadm Hri Henc]; rewrite ?app_nil_r.
    - apply (trace_final c [] [] []); constructor.
    - apply (trace_final c evs [] []); [destruct Hev as [->| ->]; repeat constructor|constructor..].
    - apply (trace_final c _ (arm_w c) [EEncodeFailed]).
      + eapply Forall_impl; [apply req_tail|apply req_events_ok].
      + unfold arm_w. destruct (c_write_to c) eqn:E; repeat constructor. exact E.
      + repeat constructor.
    - (* answered: the loop goes on with less input *) apply trace_answered; [apply req_events_ok|].
      apply IH. unfold dec_top in Hdec. apply (proj1 dec_value_progress) in Hdec. lia.
  Qed.

  (* what holds of every single event of a trace; the consequences of the shape are read off it *)
  Definition ev_ok (c : cfg) (e : event) : Prop :=
    match e with
    | EArmRead => c_read_to c = true
    | EArmWrite => c_write_to c = true
    | EHandshake _ | ESessAuth _ | EOutOfFuel => False
    | EWrote _ | EClose _ => True
    | _ => tail_event c e
    end.

  Lemma tail_ok c e : tail_event c e -> ev_ok c e.
  Proof. destruct e; cbn; tauto. Qed.

  Lemma trace_ok_events c t : trace_ok c t -> forall e, In e t -> ev_ok c e.
  Proof.
    assert (Hr : Forall (ev_ok c) (arm_r c)) by (unfold arm_r; destruct (c_read_to c) eqn:E; repeat constructor; exact E).
    assert (Hw : Forall (ev_ok c) (arm_w c)) by (unfold arm_w; destruct (c_write_to c) eqn:E; repeat constructor; exact E).
    intros H. apply Forall_forall. induction H as [mid k Hmid | mid b rest Hmid _ IH]; rewrite !Forall_app; repeat split; auto.
    - eapply Forall_impl; [apply tail_ok|exact Hmid].
    - repeat constructor.
    - eapply Forall_impl; [|exact Hmid]. intros e He. apply tail_ok, req_tail, He.
    - constructor; [exact I|exact IH].
  Qed.

  Lemma trace_ok_no_fuel c t : trace_ok c t -> ~ In EOutOfFuel t.
  Proof. intros H Hin. exact (trace_ok_events c t H _ Hin). Qed.

  (* every handler invocation of the trace carries this connection's session id and session-auth value *)
  Lemma trace_ok_calls c t : trace_ok c t ->
    forall sid sa ra op p, In (ECall sid sa ra op p) t -> sid = c_sid c /\ sa = sauth_of c.
  Proof. intros H sid sa ra op p Hin. exact (trace_ok_events c t H _ Hin). Qed.

  (* no deadline is ever armed when the timeouts are zero *)
  Lemma trace_ok_no_arms c t : trace_ok c t ->
    (c_read_to c = false -> ~ In EArmRead t) /\ (c_write_to c = false -> ~ In EArmWrite t).
  Proof. intros H. split; intros Hc Hin; apply (trace_ok_events c t H) in Hin; congruence. Qed.

  Lemma session_body_trace c input script :
    match c_sess_auth c with
    | Some false => session_body T K c input script = [ESessAuth false; EClose CloseError]
    | Some true => exists t, session_body T K c input script = ESessAuth true :: t /\ trace_ok c t
    | None => trace_ok c (session_body T K c input script)
    end.
  Proof.
    unfold session_body. destruct (c_sess_auth c) as [[|]|].
    - eexists; split; [reflexivity|]. apply serve_loop_trace_ok. cbn [rest]. lia.
    - reflexivity.
    - apply serve_loop_trace_ok. cbn [rest]. lia.
  Qed.

  Theorem session_trace c input script :
    c_tls c = None ->
    match c_sess_auth c with
    | Some false => session T K c input script = [ESessAuth false; EClose CloseError]
    | Some true => exists t, session T K c input script = ESessAuth true :: t /\ trace_ok c t
    | None => trace_ok c (session T K c input script)
    end.
  Proof. intros H. unfold session. rewrite H. apply session_body_trace. Qed.

  (* on a TLS connection: both deadlines armed iff configured, then the handshake; if it fails nothing else
     happens - no callback, no handler, no response - and the connection is closed *)
  Theorem session_tls c input script ok :
    c_tls c = Some ok ->
    session T K c input script =
      arm_r c ++ arm_w c ++ EHandshake ok :: (if ok then session_body T K c input script else [EClose CloseError]).
  Proof. intros H. unfold session. rewrite H. reflexivity. Qed.

  Definition has_fields (ty : string) (ns : list string) : bool := forallb (is_field ty) ns.

  Lemma has_fields_in ty ns n : has_fields ty ns = true -> existsb (String.eqb n) ns = true -> is_field ty n = true.
  Proof.
    unfold has_fields. rewrite forallb_forall. intros H Hn. apply existsb_exists in Hn.
    destruct Hn as [m [Hin E]]. apply String.eqb_eq in E. subst m. auto.
  Qed.

  (* the struct types handleBatch fills in, with the fields it sets *)
  Definition response_fields_b : bool :=
    has_fields "Response" ["Header"; "BatchItems"] &&
    has_fields "ResponseHeader" ["Version"; "TimeStamp"; "ClientCorrelationValue"; "BatchCount"] &&
    has_fields "ResponseBatchItem"
      ["Operation"; "UniqueID"; "ResultStatus"; "ResultReason"; "ResultMessage"; "ResponsePayload"].

  (* get_field T (set_field T (... (zero_struct T ty) ...) n x) m = x, given H : has_fields ty ns = true *)
  Ltac read_field ty H :=
    repeat (apply get_set_other; [reflexivity|]);
    apply (get_set_same ty);
    [repeat apply struct_set; apply struct_zero | apply (has_fields_in _ _ _ H); reflexivity].

  Theorem response_answers c req ritems : response_fields_b = true ->
    let resp := build_response c req ritems in
    let ph := get_field T resp "Header" in
    get_field T ph "Version" = get_field T (req_header req) "Version" /\
    get_field T ph "ClientCorrelationValue" = get_field T (req_header req) "ClientCorrelationValue" /\
    get_field T ph "BatchCount" = get_field T (req_header req) "BatchCount" /\
    get_field T ph "TimeStamp" = VTime (c_now c) /\
    get_field T resp "BatchItems" = VList (vl_of_list ritems).
  Proof.
    unfold response_fields_b. intros Hok. apply andb_prop in Hok as [Hok _]. apply andb_prop in Hok as [Hr Hh].
    unfold build_response.
    assert (E : forall h x, get_field T (set_field T (set_field T (zero_struct T "Response") "Header" h) "BatchItems" x)
                              "Header" = h) by (intros; read_field "Response" Hr).
    rewrite E. repeat split; [read_field "ResponseHeader" Hh ..|read_field "Response" Hr].
  Qed.

  Theorem response_item_reports item o : response_fields_b = true ->
    let r := response_item T K item o in
    get_field T r "Operation" = get_field T item "Operation" /\
    get_field T r "UniqueID" = get_field T item "UniqueID" /\
    match o with
    | OSuccess p => get_field T r "ResultStatus" = VEnum (k_success K) /\ get_field T r "ResponsePayload" = p
    | OFailed m reason =>
        get_field T r "ResultStatus" = VEnum (k_failed K) /\ get_field T r "ResultMessage" = VStr m /\
        get_field T r "ResultReason" = VEnum reason
    end.
  Proof.
    unfold response_fields_b. intros Hok. apply andb_prop in Hok as [_ Hi]. cbv zeta. unfold response_item.
    destruct o; repeat split; read_field "ResponseBatchItem" Hi.
  Qed.

  (* the outcome classification of the property *)
  Theorem outcome_of_classification b :
    match b with
    | BSuccess p => outcome_of K b = OSuccess p
    | BFail m => outcome_of K b = OFailed m (k_general_failure K)
    | BFailReason m r => outcome_of K b = OFailed m r
    | BPanic shown => exists m, outcome_of K b = OFailed m (k_general_failure K)
    end.
  Proof. destruct b; cbn; eauto. Qed.
End Proofs.
