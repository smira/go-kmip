(* AcceptProofs.v - C17: the accept loop of Serve (back-off, survival of temporary errors, result), and the
   session ids of C09 (consecutive numbers in accept order). *)
From Coq Require Import List NArith Lia FinFun.
Require Import Accept.
Import ListNotations.
Open Scope N_scope.

Lemma next_delay_bounds d : d = 0 \/ 5 <= d -> 5 <= next_delay d <= 1000.
Proof. unfold next_delay. destruct (N.eqb_spec d 0); lia. Qed.

(* the two results after which the loop goes on, as equations on the pair *)
Lemma accept_loop_temp r d n :
  accept_loop (ATemp false :: r) d n =
  (Sleep (next_delay d) :: fst (accept_loop r (next_delay d) n), snd (accept_loop r (next_delay d) n)).
Proof. cbn [accept_loop]. destruct (accept_loop r (next_delay d) n); reflexivity. Qed.

Lemma accept_loop_conn r d n :
  accept_loop (AConn false :: r) d n = (ServeConn n :: fst (accept_loop r 0 (S n)), snd (accept_loop r 0 (S n))).
Proof. cbn [accept_loop]. destruct (accept_loop r 0 (S n)); reflexivity. Qed.

Definition sleep_ok (a : action) : Prop := match a with Sleep d => 5 <= d <= 1000 | _ => True end.

(* every back-off is between 5 ms and 1 s (the delay variable is 0 or a previous back-off) *)
Lemma accept_loop_sleeps rs : forall delay n, delay = 0 \/ 5 <= delay -> Forall sleep_ok (fst (accept_loop rs delay n)).
Proof.
  induction rs as [|[[|]|[|]|[|]] r IH]; intros delay n Hd; rewrite ?accept_loop_temp, ?accept_loop_conn; cbn [fst];
    try (repeat constructor; fail).
  - (* a temporary error: one sleep, and the loop goes on with that delay *)
    pose proof (next_delay_bounds delay Hd) as Hb. constructor; [exact Hb|apply IH; lia].
  - (* a connection: the delay is reset *) constructor; [exact I|apply IH; lia].
Qed.

(* k consecutive temporary errors, the sleeps they cause and the delay they leave *)
Fixpoint temps (k : nat) : list accept_result := match k with O => [] | S j => ATemp false :: temps j end.

Fixpoint backoff (k : nat) (d : N) : list action :=
  match k with O => [] | S j => Sleep (next_delay d) :: backoff j (next_delay d) end.

Fixpoint iter_delay (k : nat) (d : N) : N := match k with O => d | S j => iter_delay j (next_delay d) end.

(* a prefix of temporary errors never terminates the loop: it only sleeps, then goes on with what follows *)
Lemma temps_survived k : forall rest delay n,
  accept_loop (temps k ++ rest) delay n =
  (backoff k delay ++ fst (accept_loop rest (iter_delay k delay) n), snd (accept_loop rest (iter_delay k delay) n)).
Proof.
  induction k as [|j IH]; intros rest delay n; cbn [temps app iter_delay].
  - destruct (accept_loop rest delay n); reflexivity.
  - rewrite accept_loop_temp, IH. reflexivity.
Qed.

Lemma iter_delay_closed k : forall d, 0 < d <= 1000 -> iter_delay k d = N.min 1000 (d * 2 ^ N.of_nat k).
Proof.
  induction k as [|j IH]; intros d Hd; cbn [iter_delay].
  - rewrite N.pow_0_r. lia.
  - assert (Hn: next_delay d = N.min 1000 (d * 2)) by (unfold next_delay; destruct (N.eqb_spec d 0); lia).
    rewrite IH by (rewrite Hn; lia). rewrite Hn.
    rewrite Nat2N.inj_succ, N.pow_succ_r'.
    destruct (N.le_gt_cases (d * 2) 1000) as [Hle|Hgt].
    + rewrite (N.min_r 1000 (d * 2)) by lia. f_equal. lia.
    + rewrite (N.min_l 1000 (d * 2)) by lia. rewrite N.min_l by nia. rewrite N.min_l by nia. reflexivity.
Qed.

(* doubling law: the (k+1)-th consecutive temporary error after a reset sleeps min(1000, 5 * 2^k) ms *)
Lemma backoff_from_reset k : iter_delay (S k) 0 = N.min 1000 (5 * 2 ^ N.of_nat k).
Proof. cbn [iter_delay]. change (next_delay 0) with 5. apply iter_delay_closed. lia. Qed.

(* the connection that follows any number of temporary errors is served, and the delay is reset *)
Lemma conn_after_temps k rest delay n :
  accept_loop (temps k ++ AConn false :: rest) delay n =
  (backoff k delay ++ ServeConn n :: fst (accept_loop rest 0 (S n)), snd (accept_loop rest 0 (S n))).
Proof.
  rewrite temps_survived, accept_loop_conn. reflexivity.
Qed.

(* the first permanent error (before Shutdown) ends Serve with that error, whatever preceded it *)
Lemma perm_returns_error k rest delay n :
  snd (accept_loop (temps k ++ APerm false :: rest) delay n) = ARErr.
Proof. rewrite temps_survived. reflexivity. Qed.

(* once Shutdown has been signalled every Accept error - temporary or permanent - and every late
   connection ends Serve with nil *)
Lemma done_returns_nil r rest delay n :
  (r = ATemp true \/ r = APerm true \/ r = AConn true) -> snd (accept_loop (r :: rest) delay n) = ARNil.
Proof. intros [->|[->| ->]]; reflexivity. Qed.

Lemma late_conn_closed rest delay n : fst (accept_loop (AConn true :: rest) delay n) = [CloseLate n].
Proof. reflexivity. Qed.

(* what a sequence of Accept results looks like, given Serve's result on it *)
Definition goes_on (r : accept_result) : Prop := r = ATemp false \/ r = AConn false.
Definition classified (rs : list accept_result) (res : serve_result) : Prop :=
  match res with
  | ARErr => exists pre rest, rs = pre ++ APerm false :: rest /\ Forall goes_on pre
  | ARNil => exists pre r rest, rs = pre ++ r :: rest /\ Forall goes_on pre /\ (r = ATemp true \/ r = APerm true \/ r = AConn true)
  | ARRunning => Forall goes_on rs
  end.

Lemma classified_cons x rs res : goes_on x -> classified rs res -> classified (x :: rs) res.
Proof.
  intros Hx. destruct res; cbn.
  - intros (pre & y & rest & -> & Hp & Hy). exists (x :: pre), y, rest. auto.
  - intros (pre & rest & -> & Hp). exists (x :: pre), rest. auto.
  - auto.
Qed.

Lemma result_classification rs : forall delay n, classified rs (snd (accept_loop rs delay n)).
Proof.
  induction rs as [|[[|]|[|]|[|]] r IH]; intros delay n; rewrite ?accept_loop_temp, ?accept_loop_conn.
  - constructor.
  - exists [], (ATemp true), r. auto.
  - apply classified_cons; [left; reflexivity|apply IH].
  - exists [], (APerm true), r. auto.
  - exists [], r. auto.
  - exists [], (AConn true), r. auto.
  - apply classified_cons; [right; reflexivity|apply IH].
Qed.

Lemma accept_loop_served rs : forall delay n,
  served (fst (accept_loop rs delay n)) = seq n (length (served (fst (accept_loop rs delay n)))).
Proof.
  induction rs as [|[[|]|[|]|[|]] r IH]; intros delay n; rewrite ?accept_loop_temp, ?accept_loop_conn; cbn; try reflexivity.
  - apply IH.
  - f_equal. apply IH.
Qed.

Lemma session_id_inj i j : session_id i = session_id j -> i = j.
Proof. unfold session_id. lia. Qed.

Theorem session_ids_consecutive rs :
  map session_id (served (fst (serve rs))) =
  map (fun k => N.of_nat k) (seq 1 (length (served (fst (serve rs))))).
Proof.
  unfold serve. rewrite accept_loop_served. rewrite seq_length.
  generalize (length (served (fst (accept_loop rs 0 0)))) as m. intros m.
  rewrite <- seq_shift, map_map. reflexivity.
Qed.

Theorem session_ids_distinct rs : NoDup (map session_id (served (fst (serve rs)))).
Proof.
  unfold serve. rewrite accept_loop_served. apply Injective_map_NoDup; [intros i j; apply session_id_inj|apply seq_NoDup].
Qed.
