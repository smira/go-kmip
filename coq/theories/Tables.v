(* Tables.v - boolean checkers of one table entry for the table properties C18 and C19
   (TablesProofs.v evaluates them over the regenerated tables), the lists of failing entries, and the
   lemma that lifts an evaluated double [forallb] ([forallb2_forall]). *)
From Coq Require Import List String NArith Bool.
Require Import Schema Fields Generated Instance Registry SpecSchema.
Import ListNotations.
Open Scope string_scope.
Open Scope N_scope.

Definition gen_const (n : string) : option (string * N) :=
  let fix go (l : list (string * string * N * N)) :=
    match l with
    | [] => None
    | (k, ty, v, _) :: r => if String.eqb k n then Some (ty, v) else go r
    end in go gen_consts.

(* registry -> code: the name is exported with the registry's number and the right Go type *)
Definition reg_entry_ok (goty : string) (e : string * N) : bool :=
  match gen_const (fst e) with
  | Some (ty, v) => String.eqb ty goty && (v =? snd e)
  | None => false
  end.

Definition registry_sections : list (string * list (string * N)) :=
  [("Tag", reg_tags); ("Type", reg_types); ("Enum", reg_operations);
   ("Enum", reg_result_status); ("Enum", reg_result_reason); ("Enum", reg_credential_type)].

Definition all_registry : list (string * N) := List.concat (map snd registry_sections).

(* code -> registry: a generated constant carrying a registry name has the registry number *)
Definition code_entry_ok (c : string * string * N * N) : bool :=
  let '(n, _, v, _) := c in
  match assoc n all_registry with Some rv => v =? rv | None => true end.

(* annotation lookup: every tagMap entry maps a name to the constant of that name
   ("-" is the internal any-tag marker) *)
Definition tagmap_entry_ok (e : string * string) : bool :=
  let '(k, id) := e in
  (String.eqb k id || (String.eqb k "-" && String.eqb id "ANY_TAG")) &&
  match gen_const id with Some (ty, _) => String.eqb ty "Tag" | None => false end.

(* every registry tag name is a key: kmip:"NAME" resolves (through the model of the lookup) to the registry number of NAME *)
Definition annotation_resolves (e : string * N) : bool :=
  match assoc (fst e) the_tagmap with Some v => v =? snd e | None => false end.

(* no two distinct tag names share a number, except the batch-item aliases *)
Definition batch_aliases : list string := ["BATCH_ITEM"; "REQUEST_BATCH_ITEM"; "RESPONSE_BATCH_ITEM"].
Definition is_alias (n : string) : bool := existsb (String.eqb n) batch_aliases.
Definition gen_tag_consts : list (string * N) :=
  flat_map (fun c => let '(n, ty, v, _) := c in if String.eqb ty "Tag" then [(n, v)] else []) gen_consts.
Definition tag_pair_ok (a b : string * N) : bool :=
  String.eqb (fst a) (fst b) || negb (snd a =? snd b) || (is_alias (fst a) && is_alias (fst b)).

Definition c18_any_tag_b : bool :=
  match gen_const "ANY_TAG" with Some (_, v) => v =? ANY_TAG | None => false end
  && negb (existsb (fun e => snd e =? ANY_TAG) reg_tags).

(* first failing elements, for the replay *)
Definition c18_failures : list (string * string) :=
  List.concat [
  flat_map (fun sec => flat_map (fun e => if reg_entry_ok (fst sec) e then [] else [("registry entry not matched by code", fst e)]) (snd sec)) registry_sections;
  flat_map (fun c => if code_entry_ok c then [] else [("constant differs from registry", fst (fst (fst c)))]) gen_consts;
  flat_map (fun e => if tagmap_entry_ok e then [] else [("tagMap entry resolves to another constant", fst e)]) gen_tagmap;
  flat_map (fun e => if annotation_resolves e then [] else [("annotation does not resolve to registry number", fst e)]) reg_tags;
  flat_map (fun a => flat_map (fun b => if tag_pair_ok a b then [] else [("two tag names share a number", (fst a ++ "/" ++ fst b)%string)]) gen_tag_consts) gen_tag_consts].

Definition kmip_structs : list rawstruct :=
  filter (fun s => existsb rf_has_ann (rs_fields s)) gen_structs.

Fixpoint find_obj (ty : string) (l : list specobj) : option specobj :=
  match l with [] => None | o :: r => if String.eqb ty (so_type o) then Some o else find_obj ty r end.
Fixpoint find_sf (f : string) (l : list specfield) : option specfield :=
  match l with [] => None | x :: r => if String.eqb f (sf_field x) then Some x else find_sf f r end.

(* name of the struct type a field nests, "" for anything else *)
Definition nested_struct (t : gty) : string :=
  let e := match slice_elem gen_named t with Some e => e | None => t end in
  match e with
  | TNamed n => match find_struct n gen_structs with Some _ => n | None => "" end
  | _ => ""
  end.

Definition is_deviation (ty f : string) : bool :=
  existsb (fun d => String.eqb (fst d) ty && String.eqb (snd d) f) known_deviations.

Definition field_conforms (ty : string) (f : rawfield) : bool :=
  match find_obj ty spec_schema with
  | None => false
  | Some o =>
      let '(name, opt) := parse_tag (if rf_has_ann f then rf_ann f else "") in
      match rf_type f with
      | TTagTy => String.eqb name (so_tag o)
      | t =>
          if String.eqb name "" || negb (rf_exported f) then true          (* not a KMIP field *)
          else if String.eqb name "-" && contains "skip" opt then true     (* never put on the wire *)
          else match find_sf (rf_name f) (so_fields o) with
               | None => false
               | Some sf => String.eqb name (sf_tag sf) && String.eqb (nested_struct t) (sf_nested sf)
               end
      end
  end.

Definition has_own_tag (s : rawstruct) : bool :=
  existsb (fun f => match rf_type f with TTagTy => true | _ => false end) (rs_fields s).

Definition struct_conforms (s : rawstruct) : bool :=
  match find_obj (rs_name s) spec_schema with
  | None => false
  | Some o => (String.eqb (so_tag o) "" || has_own_tag s)
  end &&
  forallb (fun f => is_deviation (rs_name s) (rf_name f) || field_conforms (rs_name s) f) (rs_fields s).

(* the numbers that go on the wire: descriptor (model of getStructDesc) vs registry *)
Definition reg_tag (n : string) : option N := assoc n reg_tags.
Definition desc_field_ok (ty : string) (o : specobj) (fd : fdesc) : bool :=
  is_deviation ty (fd_name fd) ||
  (fd_skip fd && (fd_tag fd =? ANY_TAG)) ||
  match find_sf (fd_name fd) (so_fields o) with
  | Some sf => match reg_tag (sf_tag sf) with Some v => fd_tag fd =? v | None => false end
  | None => false
  end.
Definition desc_conforms (s : rawstruct) : bool :=
  match find_obj (rs_name s) spec_schema, the_desc (rs_name s) with
  | Some o, ROk sd =>
      (if String.eqb (so_tag o) "" then sd_tag sd =? 0
       else match reg_tag (so_tag o) with Some v => sd_tag sd =? v | None => false end)
      && forallb (desc_field_ok (rs_name s) o) (sd_fields sd)
  | _, _ => false
  end.

(* the recorded deviations are real (if one is repaired the record must go) *)
Definition deviation_real (d : string * string) : bool :=
  match find_struct (fst d) gen_structs with
  | Some s => existsb (fun f => String.eqb (rf_name f) (snd d) && negb (field_conforms (fst d) f)) (rs_fields s)
  | None => false
  end.
Definition c19_deviations_real_b : bool := forallb deviation_real known_deviations.

Definition c19_failures : list (string * string) :=
  List.concat [
  flat_map (fun s =>
    List.app (match find_obj (rs_name s) spec_schema with None => [(rs_name s, "<no row in SpecSchema>")] | Some _ => [] end)
    (flat_map (fun f => if is_deviation (rs_name s) (rf_name f) || field_conforms (rs_name s) f then [] else [(rs_name s, rf_name f)]) (rs_fields s)))
    kmip_structs;
  flat_map (fun s => if desc_conforms s then [] else [(rs_name s, "<descriptor tag numbers>")]) kmip_structs].

Lemma forallb2_forall {A B} (f : A -> B -> bool) (la : list A) (lb : A -> list B) :
  forallb (fun a => forallb (f a) (lb a)) la = true ->
  forall a b, In a la -> In b (lb a) -> f a b = true.
Proof.
  intros H a b Ha Hb. rewrite forallb_forall in H. specialize (H a Ha).
  rewrite forallb_forall in H. exact (H b Hb).
Qed.
