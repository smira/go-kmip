(* Reflect.v - the type discipline of the reflective code in decode.go / encode.go, over EVERY universe of Go struct
   declarations (not only the library's own types): the descriptor getStructDesc computes for a field determines
   (1) the Go type of the value Decoder.decodeValue hands back for that field, and (2) which reflect accessor
   Encoder.encodeValue applies to it.  reflect.Value.Set / reflect.Append panic unless the value's type is assignable to
   the field / element type; Value.Int, Uint, Bool, String, Bytes panic unless the Kind matches; a type assertion
   x.(time.Time) panics unless the dynamic type is exactly that.  The theorems below say that the descriptor builder
   (Fields.v, the model of fields.go) only ever pairs a field with a descriptor for which all of these hold:
   "reflection sets only values of the exact field / element type" (C03), "the accessor fits the kind" (C13).
   The tie of Fields.v to fields.go is the `udesc` correspondence (random reflect.StructOf types, real descriptors
   through the VerifStructDesc hook). *)
From Coq Require Import List String NArith Bool.
Require Import Schema Fields.
Open Scope string_scope.

(* the Go type of the core value the decoder's read<Kind> returns / the encoder's write<Kind> takes *)
Definition core_gty (k : kind) : gty :=
  match k with
  | KInt => TInt32 | KLong => TInt64 | KEnum => TEnum | KBool => TBool
  | KBytes => TBytes | KStr => TString | KTime => TTime | KDur => TDuration
  end.

(* reflect.Kind, as far as the accessors care *)
Inductive rkind := RkInt | RkUint | RkBool | RkString | RkSlice | RkStruct | RkInterface | RkOtherKind.

Section Discipline.
  Variable tagmap : list (string * N).
  Variable named : list (string * gty).
  Variable structs : list rawstruct.

  Definition is_struct (t : gty) (n : string) : Prop :=
    t = TNamed n /\ exists s, find_struct n structs = Some s.

  (* an interface type: interface{} itself or a defined interface type *)
  Definition is_iface (t : gty) : Prop :=
    t = TIface \/ exists n, t = TNamed n /\ find_struct n structs = None /\ assoc n named = Some TIface.

  (* Go's assignability, the fragment that matters here: identical types, or anything (that implements it) into an interface *)
  Definition assignable (from to : gty) : Prop := from = to \/ is_iface to.

  (* the Go type of the value decodeValue returns for a descriptor type, if it is statically known *)
  Definition produced (ft : ftyp) (t : gty) : Prop :=
    match ft with
    | FPrim k => t = core_gty k
    | FStruct n => t = TNamed n          (* v = vv.Elem().Interface() with vv = reflect.New(t) *)
    | FDyn => True                       (* whatever BuildFieldValue chose *)
    end.

  Lemma guess_type_exact t ft :
    guess_type named structs t = ROk ft ->
    match ft with
    | FPrim k => t = core_gty k
    | FStruct n => is_struct t n
    | FDyn => is_iface t
    end.
  Proof.
    destruct t; cbn [guess_type]; intros H; try (injection H as <-; try reflexivity); try discriminate.
    - left; reflexivity.
    - (* the error message, of which the next match holds thirteen copies, stays folded *)
      set (m := _ ++ n) in H. destruct (find_struct n structs) as [s|] eqn:Hs.
      + injection H as <-. split; [reflexivity|eauto].
      + destruct (assoc n named) as [[]|] eqn:Hn; try discriminate.
        injection H as <-. right. exists n. auto.
  Qed.

  (* what getStructDesc derives from one field declaration *)
  Definition field_ann (f : rawfield) : string * string := parse_tag (if rf_has_ann f then rf_ann f else "").
  Definition field_elem (f : rawfield) : gty :=
    match slice_elem named (rf_type f) with Some e => e | None => rf_type f end.
  Definition field_is_slice (f : rawfield) : bool :=
    match slice_elem named (rf_type f) with Some _ => true | None => false end.

  Definition described (f : rawfield) (d : fdesc) : Prop :=
    rf_exported f = true /\ rf_type f <> TTagTy /\ fst (field_ann f) <> "" /\
    fd_name d = rf_name f /\
    assoc (fst (field_ann f)) tagmap = Some (fd_tag d) /\
    fd_req d = contains "required" (snd (field_ann f)) /\
    fd_skip d = contains "skip" (snd (field_ann f)) /\
    fd_slice d = field_is_slice f /\
    guess_type named structs (field_elem f) = ROk (fd_typ d).

  Lemma desc_fields_described fs : forall tag acc sd,
    desc_fields tagmap named structs fs tag acc = ROk sd ->
    Forall (fun d => exists f, described f d) acc ->
    Forall (fun d => exists f, described f d) (sd_fields sd).
  Proof.
    induction fs as [|f r IH]; intros tag acc sd H Hacc; cbn [desc_fields] in H.
    - injection H as <-. apply Forall_rev, Hacc.
    - (* [match rf_type f] holds its default branch once per constructor.  Each copy is folded back to [rf_type f],
         so that the branch is gone through once, in [Hgen], whose left side the first copy fills in.  The texts of its
         error message, most of each copy, are variables meanwhile. *)
      revert H. generalize "unknown tag " " for field ". intros m1 m2 H.
      eenough (Hgen : rf_type f <> TTagTy -> _ = ROk sd -> Forall (fun d => exists f, described f d) (sd_fields sd)).
      + destruct (rf_type f) eqn:Ety; try (rewrite <- Ety in H; apply Hgen; [congruence|exact H]).
        destruct (parse_tag _), (assoc _ tagmap); [eapply IH; eassumption|discriminate].
      + clear H. intros Hty H.
        destruct (parse_tag _) as [name opt] eqn:Ept.
        destruct (String.eqb name "" || negb (rf_exported f)) eqn:Eskip; [eapply IH; eassumption|].
        apply orb_false_iff in Eskip as [En Ex]. apply negb_false_iff in Ex. apply String.eqb_neq in En.
        destruct (assoc name tagmap) as [t|] eqn:Et; [|discriminate].
        destruct (slice_elem named (rf_type f)) as [e|] eqn:Ese;
          destruct (guess_type named structs _) as [ft|m] eqn:Eg; try discriminate;
          (eapply IH; [eassumption|]; constructor; [|exact Hacc]; exists f;
           unfold described, field_ann, field_elem, field_is_slice; rewrite Ept, Ese; repeat split; assumption).
  Qed.

  Theorem get_struct_desc_described ty sd :
    get_struct_desc tagmap named structs ty = ROk sd ->
    Forall (fun d => exists f, described f d) (sd_fields sd).
  Proof.
    unfold get_struct_desc. destruct (find_struct ty structs) as [s|]; [|discriminate].
    intros H. eapply desc_fields_described; [exact H|constructor].
  Qed.

  (* decode side: Set / Append receive a value of an assignable type *)
  Theorem decode_store_assignable f d vt :
    described f d -> produced (fd_typ d) vt -> assignable vt (field_elem f).
  Proof.
    intros (_ & _ & _ & _ & _ & _ & _ & _ & Hg) Hp. apply guess_type_exact in Hg.
    destruct (fd_typ d) as [k|n|].
    - left. congruence.
    - left. destruct Hg as [-> _]. exact Hp.
    - right. exact Hg.
  Qed.

  (* the slice case really is a slice whose element type is the one decodeValue is asked for *)
  Theorem decode_slice_target f d :
    described f d -> fd_slice d = true -> slice_elem named (rf_type f) = Some (field_elem f).
  Proof.
    intros (_ & _ & _ & _ & _ & _ & _ & Hs & _) Ht. unfold field_is_slice, field_elem in *.
    destruct (slice_elem named (rf_type f)); [reflexivity|congruence].
  Qed.

  (* encode side: the accessor encodeValue applies fits the Kind (or exact type) of the field / element *)
  Definition kind_of (t : gty) : rkind :=
    match t with
    | TInt32 | TInt64 | TDuration => RkInt
    | TEnum => RkUint
    | TBool => RkBool
    | TString => RkString
    | TBytes => RkSlice
    | TTime => RkStruct
    | TIface => RkInterface
    | _ => RkOtherKind
    end.

  (* rv.Int / rv.Uint / rv.Bool / rv.String / rv.Bytes / rv.Interface().(time.Time|time.Duration) *)
  Definition accessor_fits (k : kind) (t : gty) : Prop :=
    match k with
    | KInt | KLong => kind_of t = RkInt
    | KEnum => kind_of t = RkUint
    | KBool => kind_of t = RkBool
    | KStr => kind_of t = RkString
    | KBytes => t = TBytes
    | KTime => t = TTime
    | KDur => t = TDuration
    end.

  Theorem encode_accessor_fits f d k :
    described f d -> fd_typ d = FPrim k -> accessor_fits k (field_elem f).
  Proof.
    intros (_ & _ & _ & _ & _ & _ & _ & _ & Hg) Hk. apply guess_type_exact in Hg. rewrite Hk in Hg. rewrite Hg.
    destruct k; reflexivity.
  Qed.

  (* a STRUCTURE descriptor sits on a struct type (getStructDesc(rt) is given a struct) or on an interface (unwrapped first) *)
  Theorem encode_structure_target f d :
    described f d ->
    match fd_typ d with
    | FStruct n => is_struct (field_elem f) n
    | FDyn => is_iface (field_elem f)
    | FPrim _ => True
    end.
  Proof.
    intros (_ & _ & _ & _ & _ & _ & _ & _ & Hg). apply guess_type_exact in Hg. destruct (fd_typ d); [exact I|exact Hg|exact Hg].
  Qed.

  (* unsupported field types never get a descriptor: the whole structure type is rejected with an error *)
  Theorem unsupported_field_rejects f d :
    described f d ->
    match field_elem f with
    | TOther _ | TSliceOf _ | TTagTy => False
    | _ => True
    end.
  Proof.
    intros (_ & _ & _ & _ & _ & _ & _ & _ & Hg). destruct (field_elem f); try exact I; discriminate.
  Qed.
End Discipline.
