(* ClientReaders.v - Client.Send with the reply read through the reader objects of Readers.v: the Client's Decoder sits
   on NewDecoder's bufio.Reader over the connection, which hands out the peer's reply in an arbitrary script of read
   sizes and then ends - with io.EOF (the peer closed) or with an I/O error (reset, deadline) at any offset.
   "For every possible reply from the peer - any bytes, cut off anywhere" (C14). *)
From Coq Require Import String.
From Coq Require Import List ZArith.
Require Import Codec Readers ReadersProofs Session Client.
Import ListNotations.
Open Scope N_scope.

Section ClientOnReaders.
  Variable T : tyenv.
  Variable K : sconsts.

  Definition c_send (c : ccfg) (op : N) (payload : val) (conn : base) : list cevent * send_result :=
    if negb (cc_connected c) then ([], SError)
    else
      let armw := if cc_write_to c then [CArmWrite] else [] in
      match enc_top T (VPtr (build_request T c op payload)) with
      | None => (armw, SError)
      | Some b =>
          let armr := if cc_read_to c then [CArmRead] else [] in
          let evs := armw ++ [CSent b] ++ armr in
          match T "Response"%string with
          | None => (evs, SError)
          | Some (tag, fl) =>
              match c_dec_top "Response" tag fl (new_decoder false conn) with
              | (Ok (resp, _), _) => (evs, judge T K op resp)
              | _ => (evs, SError)
              end
          end
      end.

  (* Send on any connection: what Send returns on the reply bytes, unless the connection fails (does not just end)
     while the reply is read - then Send returns an error *)
  Lemma c_send_sim c op payload conn : transport_ok conn ->
    c_send c op payload conn = send T K c op payload (b_data conn) \/
    b_term conn <> EOF /\ snd (c_send c op payload conn) = SError.
  Proof.
    intros Hok. unfold c_send, send.
    destruct (negb (cc_connected c)); [left; reflexivity|].
    destruct (enc_top T (VPtr (build_request T c op payload))) as [b|]; [|left; reflexivity].
    destruct (T "Response"%string) as [[tag fl]|]; [|left; reflexivity].
    destruct (c_dec_top "Response" tag fl (new_decoder false conn)) as [x st'] eqn:E.
    apply decode_fresh, sim_post_iff in E; [|exact Hok].
    destruct x as [[resp n]| | |].
    - destruct E as (-> & _). left. reflexivity.
    - rewrite E. left. reflexivity.
    - change (b_term conn = EOF -> dec_top "Response" tag fl {| rest := b_data conn; last := 0 |} = Err) in E.
      destruct (b_term conn); [rewrite E by reflexivity; left; reflexivity|right; split; [discriminate|reflexivity]].
    - rewrite E. left. reflexivity.
  Qed.

  (* the peer closes after its reply: however the reply is fragmented, Send returns what it returns on the bytes *)
  Theorem client_fragmentation_independent c op payload conn :
    transport_ok conn -> b_term conn = EOF ->
    c_send c op payload conn = send T K c op payload (b_data conn).
  Proof. intros Hok Ht. destruct (c_send_sim c op payload conn Hok) as [E|[Hn _]]; [exact E|contradiction]. Qed.

  (* the connection fails (any terminal, any offset): a payload or a server error is only ever returned if the bytes that
     did arrive are a complete reply saying so - a reply cut off by the failure never yields a payload *)
  Theorem client_io_error_safe c op payload conn evs r :
    transport_ok conn ->
    c_send c op payload conn = (evs, r) -> r <> SError ->
    send T K c op payload (b_data conn) = (evs, r).
  Proof.
    intros Hok H Hr. destruct (c_send_sim c op payload conn Hok) as [E|[_ E]]; [rewrite <- E; exact H|].
    rewrite H in E. contradiction.
  Qed.
End ClientOnReaders.
