(* TablesProofs.v - C18 / C19 in two halves.  What a per-entry checker of Tables.v checks is a
   lemma about an arbitrary entry (the _spec lemmas).  That the checker holds of every entry of the
   regenerated table is evaluated: vm_compute on [forallb checker table = true], the form
   forallb_forall takes, so that nothing is left to the kernel but the evaluation itself (a
   hypothesis unfolded or simplified after the fact makes it evaluate the table lazily, twice). *)
From Coq Require Import List String NArith Bool.
Require Import Schema Fields Generated Instance Registry SpecSchema Tables.
Import ListNotations.
Open Scope string_scope.
Open Scope N_scope.

Lemma reg_entry_ok_spec goty e :
  reg_entry_ok goty e = true -> gen_const (fst e) = Some (goty, snd e).
Proof.
  unfold reg_entry_ok. destruct (gen_const (fst e)) as [[ty v]|]; [|discriminate].
  intros H. apply andb_true_iff in H. destruct H as [Hty Hv].
  apply String.eqb_eq in Hty. apply N.eqb_eq in Hv. subst. reflexivity.
Qed.

Lemma code_entry_ok_spec n ty v b rv :
  code_entry_ok (n, ty, v, b) = true -> assoc n all_registry = Some rv -> v = rv.
Proof. unfold code_entry_ok. intros H Hr. rewrite Hr in H. apply N.eqb_eq. exact H. Qed.

Lemma tagmap_entry_ok_spec k id :
  tagmap_entry_ok (k, id) = true ->
  (k = id \/ (k = "-" /\ id = "ANY_TAG")) /\ exists v, gen_const id = Some ("Tag", v).
Proof.
  unfold tagmap_entry_ok. intros H. apply andb_true_iff in H. destruct H as [Hk Hc]. split.
  - apply orb_true_iff in Hk. destruct Hk as [Hk|Hk].
    + left. apply String.eqb_eq. exact Hk.
    + right. apply andb_true_iff in Hk. destruct Hk. split; apply String.eqb_eq; assumption.
  - destruct (gen_const id) as [[ty v]|]; [|discriminate].
    apply String.eqb_eq in Hc. subst ty. exists v. reflexivity.
Qed.

Lemma annotation_resolves_spec e :
  annotation_resolves e = true -> assoc (fst e) the_tagmap = Some (snd e).
Proof.
  unfold annotation_resolves. destruct (assoc (fst e) the_tagmap); [|discriminate].
  intros H. apply N.eqb_eq in H. subst. reflexivity.
Qed.

Lemma is_alias_spec n : is_alias n = true -> In n batch_aliases.
Proof.
  intros H. apply existsb_exists in H. destruct H as [x [Hx E]].
  apply String.eqb_eq in E. subst. exact Hx.
Qed.

Lemma tag_pair_ok_spec a b :
  tag_pair_ok a b = true -> snd a = snd b ->
  fst a = fst b \/ (In (fst a) batch_aliases /\ In (fst b) batch_aliases).
Proof.
  unfold tag_pair_ok. intros H Hv. rewrite Hv, N.eqb_refl, orb_false_r in H.
  apply orb_true_iff in H. destruct H as [H|H].
  - left. apply String.eqb_eq. exact H.
  - right. apply andb_true_iff in H. destruct H. split; apply is_alias_spec; assumption.
Qed.

Lemma struct_conforms_spec s f :
  struct_conforms s = true -> In f (rs_fields s) ->
  is_deviation (rs_name s) (rf_name f) = false -> field_conforms (rs_name s) f = true.
Proof.
  unfold struct_conforms. intros H Hf Hd. apply andb_true_iff in H. destruct H as [_ H].
  pose proof (proj1 (forallb_forall _ _) H f Hf) as Hc. cbv beta in Hc.
  rewrite Hd, orb_false_l in Hc. exact Hc.
Qed.

Lemma desc_conforms_spec s :
  desc_conforms s = true ->
  exists o sd, find_obj (rs_name s) spec_schema = Some o /\ the_desc (rs_name s) = ROk sd /\
    forall fd, In fd (sd_fields sd) -> desc_field_ok (rs_name s) o fd = true.
Proof.
  unfold desc_conforms.
  destruct (find_obj (rs_name s) spec_schema) as [o|]; [|discriminate].
  destruct (the_desc (rs_name s)) as [sd|]; [|discriminate].
  intros H. apply andb_true_iff in H. destruct H as [_ H].
  exists o, sd. split; [reflexivity|]. split; [reflexivity|]. apply forallb_forall. exact H.
Qed.

Lemma registry_in_code :
  forall sec e, In sec registry_sections -> In e (snd sec) -> reg_entry_ok (fst sec) e = true.
Proof. apply (forallb2_forall (fun sec => reg_entry_ok (fst sec)) _ snd). vm_compute. reflexivity. Qed.

Lemma code_in_registry : forall c, In c gen_consts -> code_entry_ok c = true.
Proof. apply forallb_forall. vm_compute. reflexivity. Qed.

Lemma tagmap_entries : forall e, In e gen_tagmap -> tagmap_entry_ok e = true.
Proof. apply forallb_forall. vm_compute. reflexivity. Qed.

Lemma annotations_resolve : forall e, In e reg_tags -> annotation_resolves e = true.
Proof. apply forallb_forall. vm_compute. reflexivity. Qed.

(* a pair of different numbers is in order whatever the names: with the numbers compared first, the evaluation
   below looks at the names of the few pairs only that share a number *)
Lemma tag_pair_ok_numbers a b : (if snd a =? snd b then tag_pair_ok a b else true) = tag_pair_ok a b.
Proof. unfold tag_pair_ok. destruct (snd a =? snd b), (String.eqb (fst a) (fst b)); reflexivity. Qed.

Lemma tag_pairs : forall a b, In a gen_tag_consts -> In b gen_tag_consts -> tag_pair_ok a b = true.
Proof.
  intros a b. rewrite <- tag_pair_ok_numbers.
  apply (forallb2_forall (fun a b => if snd a =? snd b then tag_pair_ok a b else true) _ (fun _ => gen_tag_consts)).
  vm_compute. reflexivity.
Qed.

Lemma structs_conform : forall s, In s kmip_structs -> struct_conforms s = true.
Proof. apply forallb_forall. vm_compute. reflexivity. Qed.

Lemma descs_conform : forall s, In s kmip_structs -> desc_conforms s = true.
Proof. apply forallb_forall. vm_compute. reflexivity. Qed.

Lemma c18_any_tag_true : c18_any_tag_b = true. Proof. vm_compute. reflexivity. Qed.
Lemma c18_no_unevaluated : gen_unevaluated_consts = []. Proof. reflexivity. Qed.
Lemma c19_deviations_real_true : c19_deviations_real_b = true. Proof. vm_compute. reflexivity. Qed.
