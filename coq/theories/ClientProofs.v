(* ClientProofs.v - C14: Client.Send returns a payload only for a matching successful reply ([judge_spec]),
   what it sends and arms, and the life cycle of a Client value (never a nil dereference). *)
From Coq Require Import String.
From Coq Require Import List ZArith.
Require Import Bytes Codec Session Client.
Import ListNotations.
Open Scope N_scope.

Section P.
  Variable T : tyenv.
  Variable K : sconsts.

  (* when exactly a payload is returned *)
  Definition good_reply (op : N) (resp : val) (p : val) : Prop :=
    get_field T (get_field T resp "Header") "BatchCount" = VInt 1 /\
    exists item, get_field T resp "BatchItems" = VList (VCons item VNone) /\
      get_field T item "Operation" = VEnum op /\
      get_field T item "ResultStatus" = VEnum (k_success K) /\
      get_field T item "ResponsePayload" = p.

  (* when exactly the server's error is returned: a single-item reply for the operation whose status is not Success *)
  Definition failed_reply (op : N) (resp : val) (r : N) (m : bytes) : Prop :=
    get_field T (get_field T resp "Header") "BatchCount" = VInt 1 /\
    exists item st, get_field T resp "BatchItems" = VList (VCons item VNone) /\
      get_field T item "Operation" = VEnum op /\ get_field T item "ResultStatus" = VEnum st /\ st <> k_success K /\
      r = match get_field T item "ResultReason" with VEnum x => x | _ => 0 end /\
      m = match get_field T item "ResultMessage" with VStr x => x | _ => nil end.

  Lemma judge_spec op resp :
    match judge T K op resp with
    | SPayload p => good_reply op resp p
    | SServerError r m => failed_reply op resp r m
    | SError => True
    end.
  Proof.
    unfold judge, good_reply, failed_reply.
    (* the field names play no part, and every step on a goal that holds string literals walks through them *)
    generalize "Header"%string, "BatchCount"%string, "BatchItems"%string, "Operation"%string, "ResultStatus"%string,
      "ResponsePayload"%string, "ResultReason"%string, "ResultMessage"%string.
    intros sh sc si so ss sp sr sm.
    destruct (get_field T (get_field T resp sh) sc) as [z| | | | | | | | | | | |]; try exact I.
    destruct z as [|[| |]|]; try exact I.
    destruct (get_field T resp si) as [| | | | | | | | |l| | |]; try exact I.
    destruct l as [|item [|? ?]]; try exact I.
    destruct (get_field T item so) as [| |o| | | | | | | | | |] eqn:Ho; try exact I.
    destruct (N.eqb_spec o op) as [->|]; [|exact I].
    destruct (get_field T item ss) as [| |st| | | | | | | | | |] eqn:Hs; try exact I.
    destruct (N.eqb_spec st (k_success K)) as [->|Hne]; (split; [reflexivity|]).
    - exists item. auto.
    - exists item, st. auto 6.
  Qed.

  Lemma judge_payload op resp p : judge T K op resp = SPayload p <-> good_reply op resp p.
  Proof.
    split.
    - intros H. generalize (judge_spec op resp). rewrite H. trivial.
    - intros (Hc & item & Hi & Ho & Hs & Hp). unfold judge. rewrite Hc, Hi, Ho, N.eqb_refl, Hs, N.eqb_refl, Hp. reflexivity.
  Qed.

  Lemma judge_server_error op resp r m : judge T K op resp = SServerError r m -> failed_reply op resp r m.
  Proof. intros H. generalize (judge_spec op resp). rewrite H. trivial. Qed.

  (* Send: for EVERY reply byte string; a payload only for a matching successful reply *)
  Theorem send_payload c op payload reply p :
    snd (send T K c op payload reply) = SPayload p ->
    cc_connected c = true /\
    exists tag fl resp n st', T "Response" = Some (tag, fl) /\
      dec_top "Response" tag fl {| rest := reply; last := 0 |} = Ok (resp, n, st') /\ good_reply op resp p.
  Proof.
    unfold send. destruct (cc_connected c); cbn [negb]; [|discriminate].
    destruct (enc_top T (VPtr (build_request T c op payload))); [|discriminate].
    destruct (T "Response") as [[tag fl]|]; [|discriminate].
    destruct (dec_top "Response" tag fl {| rest := reply; last := 0 |}) as [[[resp n] st']| | |] eqn:Hd; try discriminate.
    cbn [snd]. intros H. apply judge_payload in H. split; [reflexivity|]. exists tag, fl, resp, n, st'. auto.
  Qed.

  Theorem send_not_connected c op payload reply :
    cc_connected c = false -> send T K c op payload reply = (nil, SError).
  Proof. intros H. unfold send. rewrite H. reflexivity. Qed.

  Lemma send_events c op payload reply :
    fst (send T K c op payload reply) =
    if cc_connected c then
      match enc_top T (VPtr (build_request T c op payload)) with
      | Some b => (if cc_write_to c then [CArmWrite] else []) ++ [CSent b] ++ (if cc_read_to c then [CArmRead] else [])
      | None => if cc_write_to c then [CArmWrite] else []
      end
    else [].
  Proof.
    unfold send. destruct (cc_connected c); [cbn [negb]|reflexivity].
    destruct (enc_top T (VPtr (build_request T c op payload))); [|reflexivity].
    destruct (T "Response") as [[tag fl]|]; [|reflexivity].
    destruct (dec_top "Response" tag fl {| rest := reply; last := 0 |}) as [[[resp n] st']| | |]; reflexivity.
  Qed.

  (* the one thing ever sent is the encoded request *)
  Lemma send_sent c op payload reply b : In (CSent b) (fst (send T K c op payload reply)) ->
    cc_connected c = true /\ enc_top T (VPtr (build_request T c op payload)) = Some b.
  Proof.
    rewrite send_events. destruct (cc_connected c); [|intros []].
    destruct (enc_top T (VPtr (build_request T c op payload))) as [b0|];
      destruct (cc_write_to c), (cc_read_to c); cbn; intuition congruence.
  Qed.

  (* an unencodable payload: error, and nothing is sent *)
  Theorem send_unencodable c op payload reply :
    cc_connected c = true -> enc_top T (VPtr (build_request T c op payload)) = None ->
    snd (send T K c op payload reply) = SError /\
    forall b, ~ In (CSent b) (fst (send T K c op payload reply)).
  Proof.
    intros Hc He. split; [unfold send; rewrite Hc, He; reflexivity|].
    intros b Hin. apply send_sent in Hin. destruct Hin as [_ E]. rewrite He in E. discriminate.
  Qed.

  (* deadlines: armed iff configured, write before the request, read before the reply *)
  Theorem send_arms c op payload reply b :
    In (CSent b) (fst (send T K c op payload reply)) ->
    fst (send T K c op payload reply) =
      (if cc_write_to c then [CArmWrite] else []) ++ [CSent b] ++ (if cc_read_to c then [CArmRead] else []).
  Proof. intros Hin. apply send_sent in Hin. destruct Hin as [Hc He]. rewrite send_events, Hc, He. reflexivity. Qed.

  (* DiscoverVersions is total and returns versions only from a Discover Versions Response payload *)
  Theorem discover_versions_versions c offer reply vs :
    snd (discover_versions T K c offer reply) = DVVersions vs ->
    exists fs, snd (send T K c (k_discover_versions K)
                      (set_field T (zero_struct T "DiscoverVersionsRequest") "ProtocolVersions"
                                 (VList (vl_of_list (map (version_val T) offer)))) reply)
               = SPayload (VStruct "DiscoverVersionsResponse" fs).
  Proof.
    unfold discover_versions.
    destruct (send T K c (k_discover_versions K) _ reply) as [evs r]. cbn [snd].
    destruct r as [p| |]; try discriminate.
    destruct p; try discriminate.
    destruct (String.eqb_spec ty "DiscoverVersionsResponse") as [->|Hne]; [|discriminate].
    intros _. eauto.
  Qed.
End P.

Definition clife_inv (s : clife) : Prop := has_conn s = true -> has_codec s = true.

Lemma clife_step_inv s o : clife_inv s -> clife_inv (fst (clife_step s o)).
Proof. unfold clife_inv. destruct o as [[|]| |]; intros H; try discriminate; auto. Qed.

Lemma clife_step_send s : clife_inv s -> snd (clife_step s CSend) = if has_conn s then LExchange else LErr.
Proof. unfold clife_inv. cbn. destruct (has_conn s); intros H; [rewrite H|]; reflexivity. Qed.

Lemma clife_step_no_panic s o : clife_inv s -> snd (clife_step s o) <> LPanic.
Proof.
  intros H. destruct o as [[|]| |]; try discriminate. rewrite (clife_step_send s H). destruct (has_conn s); discriminate.
Qed.

Lemma clife_run_cons s o r : clife_run s (o :: r) = snd (clife_step s o) :: clife_run (fst (clife_step s o)) r.
Proof. cbn [clife_run]. destruct (clife_step s o). reflexivity. Qed.

Lemma clife_run_no_panic ops : forall s, clife_inv s -> ~ In LPanic (clife_run s ops).
Proof.
  induction ops as [|o r IH]; intros s Hi; [intros []|]. rewrite clife_run_cons. intros [Hx|Hin].
  - exact (clife_step_no_panic s o Hi Hx).
  - exact (IH _ (clife_step_inv s o Hi) Hin).
Qed.

(* "connected" as the user sees it: the last Connect / Close on this client was a successful Connect *)
Fixpoint connected_after (c : bool) (ops : list cop) : bool :=
  match ops with
  | [] => c
  | CConnect Connects :: r => connected_after true r
  | CConnect DialFails :: r | CClose :: r => connected_after false r
  | CSend :: r => connected_after c r
  end.

Lemma clife_run_app s a b : clife_run s (a ++ b) =
  clife_run s a ++ clife_run (fold_left (fun st o => fst (clife_step st o)) a s) b.
Proof.
  revert s. induction a as [|o r IH]; intros s; cbn [app]; [reflexivity|].
  rewrite !clife_run_cons, IH. reflexivity.
Qed.

Lemma clife_state_after ops : forall s,
  has_conn (fold_left (fun st o => fst (clife_step st o)) ops s) = connected_after (has_conn s) ops.
Proof.
  induction ops as [|o r IH]; intros s; cbn [fold_left]; [reflexivity|].
  rewrite IH. destruct o as [[|]| |]; reflexivity.
Qed.

Lemma clife_inv_after ops : forall s, clife_inv s -> clife_inv (fold_left (fun st o => fst (clife_step st o)) ops s).
Proof. induction ops as [|o r IH]; intros s H; [exact H|]. apply IH, clife_step_inv, H. Qed.

(* a Send after any history: "not connected" error iff not connected, otherwise the exchange - never a panic *)
Lemma clife_send_after ops :
  clife_run clife0 (ops ++ [CSend]) =
  clife_run clife0 ops ++ [if connected_after false ops then LExchange else LErr].
Proof.
  rewrite clife_run_app, clife_run_cons, clife_step_send, clife_state_after; [reflexivity|].
  apply clife_inv_after. unfold clife_inv; cbn; discriminate.
Qed.
