(* LedgerProofs.v - C05: the allocation ledger of the decoder on reader objects (Readers.v) is bounded
   by a linear function of the bytes the reader can really deliver - whatever lengths the input
   declares.  Potential argument: Phi = ledger + A * (bytes still available to this decoder);
   every operation's ledger entries are paid for by the bytes it consumes ([amort]).
   Then, for C03: reading from an unbuffered source, a structure takes at most its 8 header bytes
   and its declared length from the source on every outcome ([cons], [struct_no_overread]). *)
From Coq Require Import List ZArith Bool Lia Strings.Byte.
Require Import Bytes Schema Codec CodecProofs DenoteProofs Readers ReadersProofs.
Import ListNotations.
Open Scope N_scope.

(* for every file that loads this one *)
Arguments Z.mul : simpl never.
Arguments Z.sub : simpl never.

Lemma copy_loop_cost fuel : forall r left cap acc al x r' al',
  wf_reader r -> (rmeasure r + 1 < fuel)%nat ->
  copy_loop fuel r left cap acc al = (x, r', al') ->
  al <= 2 * cap -> cap <= 2 * blen acc + 1024 ->
  al' + 4 * blen (rden r') <= 4 * blen acc + 4 * blen (rden r) + 2048.
Proof.
  intros r left cap acc al x r' al' Hw Hf. rewrite copy_loop_pull.
  destruct (copy_pull _ _ _ _) as [[[[acc1 cap1] al1] out] r1] eqn:E. intros H Ha Hc. injection H as _ <- <-.
  apply copy_pull_spec in E; [|exact Hw|lia]. destruct E as (d & e & [-> Hi] & [_ _ D _] & _).
  specialize (Hi Ha Hc). rewrite D, blen_app in *. lia.
Qed.

Lemma copy_buf_cost l r x r' al : wf_reader r -> copy_buf l r = (x, r', al) ->
  al + 4 * blen (rden r') <= 4 * blen (rden r) + 2048.
Proof.
  intros Hw H. unfold copy_buf in H.
  apply copy_loop_cost in H; [|assumption|unfold rmeasure; lia|lia|lia].
  rewrite blen_nil in H. lia.
Qed.

Open Scope Z_scope.

Definition A : Z := 1536.         (* ledger bytes that one input byte pays for *)
Definition SL : Z := 256.         (* what every accepted item leaves over after paying for itself *)
Definition EB : Z := 8192.        (* what a failing operation may add on top of the potential *)
Definition NMAX : N := 30.        (* the constants pay for structures of up to NMAX fields *)

(* Readers.v's constants in Z; [Kz] keeps the copies equal *)
Definition K_ARRz : Z := 16.
Definition K_BOXz : Z := 48.
Definition K_ERRz : Z := 768.
Definition K_DECz : Z := 4352.
Definition K_FIELDz : Z := 160.
Definition K_STRUCTz : Z := 256.

Lemma Kz : Z.of_N K_ARR = K_ARRz /\ Z.of_N K_BOX = K_BOXz /\ Z.of_N K_ERR = K_ERRz /\ Z.of_N K_DEC = K_DECz /\
           Z.of_N K_FIELD = K_FIELDz /\ Z.of_N K_STRUCT = K_STRUCTz.
Proof. repeat split; reflexivity. Qed.

Definition FB (fl : flist) : Z := 16 * Z.of_N (flist_len fl).
Definition FE (fl : flist) : Z := FB fl + EB + 2 * K_ERRz.

(* the side conditions of the rules below are linear arithmetic over these constants *)
Ltac ledger :=
  cbv beta delta [FE FB SL EB A NMAX K_ARRz K_BOXz K_ERRz K_DECz K_FIELDz K_STRUCTz
                  K_ARR K_BOX K_ERR K_DEC K_FIELD K_STRUCT] in *; lia.

Definition look (s : cstate) : Z := if (clast s =? 0)%N then 0 else 3.
Definition phi (s : cstate) : Z := Z.of_N (blen (rden (rd s))) + look s.
Definition Phi (s : cstate) : Z := Z.of_N (alloc s) + A * phi s.

Lemma phi_nonneg s : 0 <= phi s.
Proof. unfold phi, look. destruct (clast s =? 0)%N; lia. Qed.

Definition is_ok {X} (x : dres X) : bool := match x with Ok _ => true | _ => false end.

Record amort_post {X} (s : cstate) (x : dres X) (s' : cstate) (aok aerr : Z) : Prop := {
  am_shape : cshape s s';
  am_ok : is_ok x = true -> wf_c s' /\ Phi s' <= Phi s + aok;
  am_err : is_ok x = false -> Phi s' <= Phi s + aerr }.

Definition amort {X} (m : M X) (aok aerr : Z) : Prop :=
  forall s x s', wf_c s -> m s = (x, s') -> amort_post s x s' aok aerr.

Lemma amort_weaken {X} (m : M X) a b a' b' : a <= a' -> b <= b' -> amort m a b -> amort m a' b'.
Proof.
  intros Ha Hb H s x s' Hw Hm. destruct (H _ _ _ Hw Hm) as [S O E]. split; [exact S| |].
  - intros Hx. destruct (O Hx). split; [assumption|lia].
  - intros Hx. specialize (E Hx). lia.
Qed.

(* a bound that has been proved may be relaxed: [amort_weaken], in the order in which it is applied to a proof *)
Lemma amort_le {X} {m : M X} {a e a' e'} : amort m a e -> a <= a' -> e <= e' -> amort m a' e'.
Proof. intros H Ha He. exact (amort_weaken m a e a' e' Ha He H). Qed.

Lemma amort_post_from {X} s s1 (x : dres X) s' a e d :
  cshape s s1 -> Phi s1 <= Phi s + d -> amort_post s1 x s' a e -> amort_post s x s' (d + a) (d + e).
Proof.
  intros Sh Hp [S O R]. split; [eapply cshape_trans; eassumption| |].
  - intros Hx. destruct (O Hx). split; [assumption|lia].
  - intros Hx. specialize (R Hx). lia.
Qed.

Lemma Phi_charge s n : Phi {| rd := rd s; clast := clast s; alloc := alloc s + n |} = Phi s + Z.of_N n.
Proof. unfold Phi, phi, look. cbn [rd clast alloc]. lia. Qed.

Lemma amort_post_err {X} s s1 (x : dres X) n a e :
  cshape s s1 -> is_ok x = false -> Phi s1 + Z.of_N n <= Phi s + e ->
  amort_post s x {| rd := rd s1; clast := clast s1; alloc := alloc s1 + n |} a e.
Proof.
  intros Sh Hx Hp. split; [exact Sh|rewrite Hx; discriminate|]. intros _. rewrite Phi_charge. exact Hp.
Qed.

Lemma amort_ret {X} (a : X) : amort (mret a) 0 0.
Proof.
  intros s x s' Hw H. unfold mret in H. injection H as <- <-. split; [apply cshape_refl| |discriminate].
  intros _. split; [assumption|lia].
Qed.

Lemma amort_fail_any {X} (e : dres X) a : is_ok e = false -> amort (mfail e) a 0.
Proof.
  intros He s x s' Hw H. unfold mfail in H. injection H as <- <-. split; [apply cshape_refl| |intros _; lia].
  rewrite He. discriminate.
Qed.

Lemma amort_fail {X} (e : dres X) : is_ok e = false -> amort (mfail e) 0 0.
Proof. apply amort_fail_any. Qed.

Lemma amort_charge n : amort (charge n) (Z.of_N n) 0.
Proof.
  intros s x s' Hw H. unfold charge in H. injection H as <- <-. split; [apply same_shape_refl| |discriminate].
  intros _. split; [exact Hw|]. rewrite Phi_charge. lia.
Qed.

Lemma amort_bind {X Y} (m1 : M X) (m2 : X -> M Y) a1 e1 a2 e2 :
  amort m1 a1 e1 -> (forall v, amort (m2 v) a2 e2) ->
  amort (mbind m1 m2) (a1 + a2) (Z.max e1 (a1 + e2)).
Proof.
  intros H1 H2 s x s' Hw H. unfold mbind in H. destruct (m1 s) as [x1 s1] eqn:E1.
  destruct (H1 _ _ _ Hw E1) as [S1 O1 R1].
  destruct x1 as [v| | |].
  - destruct (O1 eq_refl) as [Hw1 P1]. destruct (H2 v _ _ _ Hw1 H) as [S2 O2 R2].
    split; [eapply cshape_trans; eassumption| |].
    + intros Hx. destruct (O2 Hx). split; [assumption|lia].
    + intros Hx. specialize (R2 Hx). lia.
  - injection H as <- <-. split; [assumption|discriminate|]. intros _. specialize (R1 eq_refl). lia.
  - injection H as <- <-. split; [assumption|discriminate|]. intros _. specialize (R1 eq_refl). lia.
  - injection H as <- <-. split; [assumption|discriminate|]. intros _. specialize (R1 eq_refl). lia.
Qed.

(* the form in which the bind rule is used: the parts are composed exactly (nested binds by [amort_bind]), and the
   stated bound of the whole is compared with the composition once, by arithmetic *)
Lemma amort_bind_le {X Y} {m1 : M X} {m2 : X -> M Y} {a1 e1 a2 e2 a e} :
  amort m1 a1 e1 -> (forall v, amort (m2 v) a2 e2) -> a1 + a2 <= a -> Z.max e1 (a1 + e2) <= e ->
  amort (mbind m1 m2) a e.
Proof. intros H1 H2. apply amort_le, amort_bind; assumption. Qed.

Lemma amort_charge_fail {X} n a : amort (let^ _ := charge n in @mfail X Err) a (Z.of_N n).
Proof. apply (amort_bind_le (amort_charge n) (fun _ => amort_fail_any Err (a - Z.of_N n) eq_refl)); lia. Qed.

Lemma amort_charge_then {X} n (m : M X) a e : amort m a e -> amort (let^ _ := charge n in m) (Z.of_N n + a) (Z.max 0 (Z.of_N n + e)).
Proof. intros H. exact (amort_bind _ _ _ _ _ _ (amort_charge n) (fun _ => H)). Qed.

Lemma dropN_blenZ n (l : bytes) : (n <= blen l)%N -> Z.of_N (blen (dropN n l)) = Z.of_N (blen l) - Z.of_N n.
Proof. intros H. rewrite dropN_blen. lia. Qed.

Lemma short_class_not_ok {X} (x : dres X) a t : short_class x a t -> is_ok x = false.
Proof. intros ([-> | ->] & _); reflexivity. Qed.

(* an operation that has taken its [n] bytes (or all there was, and failed) has paid for what it charged - at
   most [c], and [q] for every byte taken - with the bytes *)
Lemma amort_of_took {X} n s (x : dres X) r' v avail q c a al :
  wf_c s -> took n (rd s) x r' v avail -> 0 <= q <= A -> c - (A - q) * Z.of_N n <= a ->
  Z.of_N al + q * Z.of_N (blen (rden r')) <= Z.of_N (alloc s) + q * Z.of_N (blen (rden (rd s))) + c ->
  amort_post s x {| rd := r'; clast := clast s; alloc := al |} a c.
Proof.
  intros Hw (W & Sh & d & D & Hend) Hq Ha Hal.
  split; [exact Sh| |]; intros Hx; unfold Phi, phi, look; cbn [rd clast alloc]; rewrite D, blen_app in *.
  - (* x is Ok: the bytes were there *)
    destruct Hend as [[Hn _]|(_ & _ & E%short_class_not_ok)]; [|congruence].
    split; [apply wf_c_step; assumption|nia].
  - (* x has failed: short, and the bound is c whatever was taken *)
    nia.
Qed.

Lemma cons_of_took {X} n s (x : dres X) r' v avail al :
  wf_c s -> took n (rd s) x r' v avail ->
  cshape s {| rd := r'; clast := clast s; alloc := al |} /\
  (blen (rden (rd s)) <= blen (rden r') + n)%N /\ (is_ok x = true -> wf_c {| rd := r'; clast := clast s; alloc := al |}).
Proof.
  intros Hw (W & Sh & d & D & Hc). split; [exact Sh|]. split; [|intros _; apply wf_c_step; assumption].
  rewrite D, blen_app. lia.
Qed.

Lemma amort_read_n n : amort (c_read_n n) (16 - A * Z.of_N n) 16.
Proof.
  intros s x s' Hw H. unfold c_read_n in H. destruct (readfull n (rd s)) as [x0 r'] eqn:Er. injection H as <- <-.
  apply (amort_of_took _ _ _ _ _ _ 0 16 _ _ Hw (readfull_spec _ _ _ _ (proj1 Hw) Er)); ledger.
Qed.

Lemma amort_read_byte : amort c_read_byte (- A) 0.
Proof.
  intros s x s' Hw H. unfold c_read_byte in H. destruct (readbyte (rd s)) as [x0 r'] eqn:Er. injection H as <- <-.
  apply (amort_of_took _ _ _ _ _ _ 0 0 _ _ Hw (rb_took _ _ _ (readbyte_any_spec _ _ _ (proj1 Hw) (proj2 Hw) Er))); ledger.
Qed.

Lemma amort_copy l : amort (c_copy l) (2048 + (4 - A) * Z.of_N l) 2048.
Proof.
  intros s x s' Hw H. unfold c_copy in H. destruct (copy_buf l (rd s)) as [[x0 r'] al] eqn:Er. injection H as <- <-.
  pose proof (copy_buf_cost _ _ _ _ _ (proj1 Hw) Er).
  apply (amort_of_took _ _ _ _ _ _ 4 2048 _ _ Hw (copy_buf_spec _ _ _ _ _ (proj1 Hw) Er)); ledger.
Qed.

Lemma amort_discard p : amort (c_discard p) (- A * Z.of_N p) 0.
Proof.
  intros s x s' Hw H. unfold c_discard in H. destruct (discard p (rd s)) as [x0 r'] eqn:Er. injection H as <- <-.
  apply (amort_of_took _ _ _ _ _ _ 0 0 _ _ Hw (discard_spec _ _ _ _ (proj1 Hw) Er)); ledger.
Qed.

Lemma amort_read_num k : amort (c_read_num k) (16 - A * Z.of_N k) 16.
Proof.
  unfold c_read_num. apply (amort_bind_le (amort_read_n k) (fun b => amort_ret _)); ledger.
Qed.

Lemma amort_read_type : amort c_read_type (- A) 0.
Proof.
  unfold c_read_type. apply (amort_bind_le amort_read_byte (fun x => amort_ret _)); ledger.
Qed.

Lemma amort_read_tag : amort c_read_tag (16 - 3 * A) 16.
Proof.
  intros s x s' Hw H. unfold c_read_tag in H. destruct (negb (clast s =? 0)%N) eqn:En.
  - injection H as <- <-. split; [apply same_shape_refl| |discriminate].
    intros _. split; [exact Hw|]. unfold Phi, phi, look. cbn [rd clast alloc].
    destruct (clast s =? 0)%N; [discriminate|]. cbn. unfold A. lia.
  - exact (amort_read_num 3 _ _ _ Hw H).
Qed.

Lemma amort_peek_tag : amort c_peek_tag 16 16.
Proof.
  intros s x s' Hw H. unfold c_peek_tag in H. destruct (negb (clast s =? 0)%N).
  - injection H as <- <-. split; [apply cshape_refl| |discriminate]. intros _. split; [exact Hw|lia].
  - assert (Hs: forall t, amort (c_set_last t) (3 * A) 0).
    { intros t s0 x0 s0' Hw0 H0. unfold c_set_last in H0. injection H0 as <- <-.
      split; [apply same_shape_refl| |discriminate]. intros _. split; [exact Hw0|].
      unfold Phi, phi, look. cbn [rd clast alloc]. unfold A. destruct (t =? 0)%N, (clast s0 =? 0)%N; lia. }
    assert (Hm: amort (let^ t := c_iread_tag in let^ _ := c_set_last t in mret t) 16 16).
    { apply (amort_bind_le (amort_read_num 3) (fun t => amort_bind _ _ _ _ _ _ (Hs t) (fun _ => amort_ret t))); ledger. }
    exact (Hm _ _ _ Hw H).
Qed.

Lemma amort_expect_tag t : amort (c_expect_tag t) (16 - 3 * A) (16 + K_ERRz).
Proof.
  refine (amort_bind_le (a2 := 0) (e2 := K_ERRz) amort_read_tag _ _ _); [|ledger..].
  intros t'. destruct (negb (t =? t')%N && negb (t =? ANY_TAG)%N); [apply amort_charge_fail|apply (amort_le (amort_ret tt)); ledger].
Qed.

Lemma amort_expect_numlike (m : M N) v a e : amort m a e ->
  amort (let^ x := m in if (x =? v)%N then mret tt else (let^ _ := charge K_ERR in mfail Err)) a (Z.max e (a + K_ERRz)).
Proof.
  intros Hm. refine (amort_bind_le (a2 := 0) (e2 := K_ERRz) Hm _ _ _); [|lia..].
  intros x. destruct (x =? v)%N; [apply (amort_le (amort_ret tt)); ledger|apply amort_charge_fail].
Qed.

Lemma amort_expect_type v : amort (c_expect_type v) (- A) K_ERRz.
Proof. apply (amort_le (amort_expect_numlike _ v _ _ amort_read_type)); ledger. Qed.

Lemma amort_expect_len v : amort (c_expect_len v) (16 - 4 * A) (16 + K_ERRz).
Proof. apply (amort_le (amort_expect_numlike _ v _ _ (amort_read_num 4))); ledger. Qed.

Lemma amort_fixed (v : bytes -> val * N) l :
  amort (let^ _ := c_expect_len l in let^ b := c_read_n 8 in let^ _ := charge K_BOX in mret (v b))
        (80 - 12 * A) (16 + K_ERRz).
Proof.
  apply (amort_bind_le (amort_expect_len l)
           (fun _ => amort_bind _ _ _ _ _ _ (amort_read_n 8) (fun b => amort_charge_then K_BOX _ _ _ (amort_ret _))));
    ledger.
Qed.

Definition bool_tail (b : bytes) : M (val * N) :=
  if all_zero (firstn 7 b) then
    match skipn 7 b with
    | [x] => if Byte.eqb x x01 then mret (VBool true, 16%N)
             else if Byte.eqb x x00 then mret (VBool false, 16%N)
             else (let^ _ := charge K_ERR in mfail Err)
    | _ => (let^ _ := charge K_ERR in mfail Err)
    end
  else (let^ _ := charge K_ERR in mfail Err).

Lemma amort_bool_tail b : amort (bool_tail b) 0 K_ERRz.
Proof.
  unfold bool_tail. destruct (all_zero (firstn 7 b)); [|apply amort_charge_fail].
  destruct (skipn 7 b) as [|y [|? ?]]; try apply amort_charge_fail.
  destruct (Byte.eqb y x01); [apply (amort_le (amort_ret _)); ledger|].
  destruct (Byte.eqb y x00); [apply (amort_le (amort_ret _)); ledger|apply amort_charge_fail].
Qed.

Lemma amort_pad l : amort (if (pad8 l =? 0)%N then mret [] else c_read_n (pad8 l)) 16 16.
Proof. destruct (pad8 l =? 0)%N; [apply (amort_le (amort_ret _))|apply (amort_le (amort_read_n _))]; ledger. Qed.

Definition str_tail (k : kind) (l : N) : M (val * N) :=
  let^ b := c_copy l in
  let^ _ := (if (pad8 l =? 0)%N then mret [] else c_read_n (pad8 l)) in
  let^ _ := charge (K_BOX + match k with KStr => l | _ => 0 end) in
  mret (match k with KBytes => VBytes b | _ => VStr b end, (8 + l + pad8 l)%N).

Lemma amort_str_tail k l : amort (str_tail k l) (2048 + 16 + 48 + 8 * Z.of_N l - A * Z.of_N l) 4096.
Proof.
  assert (Hk : (match k with KStr => l | _ => 0 end <= l)%N) by (destruct k; lia).
  unfold str_tail.
  apply (amort_bind_le (amort_copy l)
           (fun b => amort_bind _ _ _ _ _ _ (amort_pad l)
              (fun _ => amort_charge_then (K_BOX + match k with KStr => l | _ => 0 end) _ _ _ (amort_ret _))));
    ledger.
Qed.

Lemma amort_item_head tag ty (m : M (val * N)) a e : amort m a e ->
  amort (let^ _ := c_expect_tag tag in let^ _ := c_expect_type ty in m) (16 - 4 * A + a) (Z.max (16 + K_ERRz) (16 - 4 * A + e)).
Proof.
  intros Hm. apply (amort_bind_le (amort_expect_tag tag) (fun _ => amort_bind _ _ _ _ _ _ (amort_expect_type ty) (fun _ => Hm))); ledger.
Qed.

Lemma amort_dec_prim k tag : amort (c_dec_prim k tag) (- SL) EB.
Proof.
  assert (Hstr: forall k l, amort (str_tail k l) (2048 + 16 + 48) 4096) by (intros; apply (amort_le (amort_str_tail _ _)); ledger).
  unfold c_dec_prim.
  destruct k.
  (* the five kinds of fixed length, by their places among the constructors of [kind] *)
  1-3, 7-8: apply (amort_le (amort_item_head _ _ _ _ _ (amort_fixed _ _))); ledger.
  - (* bool *)
    apply (amort_le (amort_item_head _ _ _ _ _
             (amort_bind _ _ _ _ _ _ (amort_expect_len 8) (fun _ => amort_bind _ _ _ _ _ _ (amort_read_n 8) amort_bool_tail))));
      ledger.
  - (* bytes *) apply (amort_le (amort_item_head _ _ _ _ _ (amort_bind _ _ _ _ _ _ (amort_read_num 4) (Hstr KBytes)))); ledger.
  - (* string *) apply (amort_le (amort_item_head _ _ _ _ _ (amort_bind _ _ _ _ _ _ (amort_read_num 4) (Hstr KStr)))); ledger.
Qed.

Lemma amort_skip_tail l : amort (let^ _ := c_discard (padded l) in mret (8 + padded l)%N) 0 0.
Proof. apply (amort_bind_le (amort_discard (padded l)) (fun _ => amort_ret _)); ledger. Qed.

Lemma amort_dec_skip tag : amort (c_dec_skip tag) (- SL) EB.
Proof.
  unfold c_dec_skip.
  apply (amort_bind_le (amort_expect_tag tag)
           (fun _ => amort_bind _ _ _ _ _ _ amort_read_type (fun _ => amort_bind _ _ _ _ _ _ (amort_read_num 4) amort_skip_tail)));
    ledger.
Qed.

Lemma amort_wrapped {X} (m : M X) a e : amort m a e -> amort (c_wrapped m) a (e + K_ERRz).
Proof.
  intros Hm s x s' Hw H. unfold c_wrapped in H. destruct (m s) as [x0 s0] eqn:E.
  destruct (Hm _ _ _ Hw E) as [S O R].
  destruct x0 as [v| | |]; injection H as <- <-.
  - split; [exact S|exact O|discriminate].
  - apply amort_post_err; [exact S|reflexivity|]. specialize (R eq_refl). ledger.
  - apply amort_post_err; [exact S|reflexivity|]. specialize (R eq_refl). ledger.
  - split; [exact S|discriminate|]. intros _. specialize (R eq_refl). ledger.
Qed.

Lemma amort_slice_loop (step : M (val * N)) tag skip explen : amort step (- SL) EB ->
  forall fuel actual nsum acc, amort (c_slice_loop fuel step tag skip explen actual nsum acc) (-80) (EB + K_ERRz).
Proof.
  intros Hs. induction fuel as [|f IH]; intros actual nsum acc; cbn [c_slice_loop].
  - apply (amort_le (amort_fail_any OutOfFuel (-80) eq_refl)); ledger.
  - (* an element pays SL = 256; appending it and peeking at the next tag cost K_FIELD + 16, which leaves 80 a round *)
    refine (amort_bind_le (a2 := K_FIELDz + 16) (e2 := K_FIELDz + 16 + EB + K_ERRz) (amort_wrapped _ _ _ Hs) _ _ _); [|ledger..].
    intros [v nn].
    refine (amort_le (amort_charge_then (if skip then 0%N else K_FIELD) _ 16 (16 + EB + K_ERRz) _) _ _); [|destruct skip; ledger..].
    destruct (explen <=? (actual + nn) mod 2 ^ 32)%N; [apply (amort_le (amort_ret _)); ledger|].
    refine (amort_bind_le (a2 := 0) (e2 := EB + K_ERRz) amort_peek_tag _ _ _); [|ledger..].
    intros t. destruct (t =? tag)%N; [apply (amort_le (IH _ _ _))|apply (amort_le (amort_ret _))]; ledger.
Qed.

Fixpoint small_sch (s : sch) : bool :=
  match s with
  | SPrim _ => true
  | SStruct _ fl => (flist_len fl <=? NMAX)%N && small_fl fl
  | SDyn _ _ cs => small_cs cs
  end
with small_fl (fl : flist) : bool :=
  match fl with FNil => true | FCons _ s r => small_sch s && small_fl r end
with small_cs (cs : dcases) : bool :=
  match cs with DNil => true | DCase _ s r => small_sch s && small_cs r end.

Definition L_sch (s : sch) : Prop := small_sch s = true -> forall a cur, amort (c_dec_value s a cur) (- SL) EB.
Definition L_fl (fl : flist) : Prop := small_fl fl = true ->
  forall i explen actual nsum cur, amort (c_dec_fields fl i explen actual nsum cur) (FB fl) (FE fl).
Definition L_cs (cs : dcases) : Prop := small_cs cs = true -> forall key a, amort (c_dec_cases cs key a) (- SL) EB.

Lemma amort_dec_item a s cur : amort (c_dec_value s a cur) (- SL) EB -> amort (c_dec_item a s cur) (- SL) EB.
Proof.
  intros Hs. unfold c_dec_item. destruct (fa_skip a); [|exact Hs].
  apply (amort_bind_le (amort_dec_skip (fa_tag a)) (fun n => amort_ret _)); ledger.
Qed.

Lemma amort_fields_cons a s r :
  (forall a0 cur, amort (c_dec_value s a0 cur) (- SL) EB) ->
  (forall i explen actual nsum cur, amort (c_dec_fields r i explen actual nsum cur) (FB r) (FE r)) ->
  forall i explen actual nsum cur, amort (c_dec_fields (FCons a s r) i explen actual nsum cur) (FB (FCons a s r)) (FE (FCons a s r)).
Proof.
  intros Hs Hr i explen actual nsum cur dd x dd' Hw H.
  assert (HFB: FB (FCons a s r) = 16 + FB r) by (unfold FB; cbn [flist_len]; lia).
  assert (HFE: FE (FCons a s r) = 16 + FE r) by (unfold FE; lia).
  rewrite HFB, HFE.
  cbn [c_dec_fields] in H.
  fold (c_dec_item a s cur) in H. pose proof (amort_dec_item a s cur (Hs a cur)) as Hitem.
  destruct (c_peek_tag dd) as [xp dd1] eqn:Ep.
  destruct (amort_peek_tag _ _ _ Hw Ep) as [S1 O1 R1].
  destruct xp as [t| | |].
  - destruct (O1 eq_refl) as [Hw1 P1]. apply (amort_post_from _ dd1); [exact S1|exact P1|].
    destruct (negb (fa_req a) && negb (t =? fa_tag a)%N && negb (fa_tag a =? ANY_TAG)%N); [exact (Hr _ _ _ _ _ _ _ _ Hw1 H)|].
    destruct (fa_slice a).
    + refine (amort_bind_le _ _ _ _ _ _ _ Hw1 H); [apply amort_slice_loop, Hitem|intros [[es a'] n']; apply Hr|ledger..].
    + refine (amort_bind_le _ _ _ _ _ _ _ Hw1 H); [apply amort_wrapped, Hitem|intros [v nn]; apply Hr|ledger..].
  - (* io.EOF while peeking *)
    specialize (R1 eq_refl).
    destruct (fa_req a).
    + injection H as <- <-. apply amort_post_err; [exact S1|reflexivity|ledger].
    + (* the decoder goes on from the state the peek has left: the bound on its failure is the bound on the potential *)
      destruct (peek_eof_state _ _ Hw Ep) as (_ & Hw1 & _ & E). rewrite E in H.
      apply (amort_post_from _ dd1); [exact S1|exact R1|]. exact (Hr _ _ _ _ _ _ _ _ Hw1 H).
  - specialize (R1 eq_refl). injection H as <- <-. apply amort_post_err; [exact S1|reflexivity|ledger].
  - specialize (R1 eq_refl). injection H as <- <-. split; [exact S1|discriminate|]. intros _. ledger.
Qed.

Lemma takeN_blenZ n (l : bytes) : Z.of_N (blen (takeN n l)) = Z.min (Z.of_N n) (Z.of_N (blen l)).
Proof. rewrite takeN_blen. lia. Qed.

(* discarding the nested decoder gives back the potential that creating it took, less K_DEC and less what the
   nested bufio.Reader still held: the bytes that the nested decoder has not pulled are the outer decoder's again *)
Lemma pop_nested_potential len s dd : wf_c s -> cshape (push_nested len s) dd ->
  Phi (pop_nested (clast s) dd) - Phi s <= Phi dd - Phi (push_nested len s) + K_DECz.
Proof.
  intros Hw Shd. destruct (pop_nested_spec _ _ _ Hw Shd) as (_ & _ & buf & n' & Hden & Hdrop).
  apply (f_equal blen) in Hden, Hdrop. rewrite blen_app, takeN_blen in Hden. rewrite !dropN_blen in Hdrop.
  unfold Phi, phi, look. change (rden (rd (push_nested len s))) with (takeN len (rden (rd s))).
  rewrite takeN_blen. cbn [push_nested pop_nested clast alloc N.eqb].
  unfold A, K_DECz, K_DEC. (* [look s] stands on both sides *) destruct (clast dd =? 0)%N; lia.
Qed.

Lemma amort_struct_body ty fl len :
  (forall i explen actual nsum cur, amort (c_dec_fields fl i explen actual nsum cur) (FB fl) (FE fl)) ->
  amort (c_struct_body ty fl len)
        (K_DECz + FB fl) (K_DECz + FE fl + K_ERRz).
Proof.
  intros IH s3 x s' Hw H. unfold c_struct_body in H.
  destruct (c_dec_fields fl O len 0 0 (zeros_of fl) (push_nested len s3)) as [xf dd] eqn:Ef.
  destruct (IH _ _ _ _ _ _ _ _ (push_nested_wf len _ Hw) Ef) as [Shd Od Rd].
  destruct (pop_nested_spec _ _ _ Hw Shd) as (Sh4 & Hw4 & _).
  pose proof (pop_nested_potential _ _ _ Hw Shd) as Hp.
  destruct xf as [[[vs actual] nsum]| | |].
  2-4: (* the fields have failed *)
    specialize (Rd eq_refl); injection H as <- <-; (split; [exact Sh4|discriminate|]); intros _; ledger.
  destruct (Od eq_refl) as [Hwd Pd]. destruct (actual =? len)%N; injection H as <- <-.
  - (* accepted *) split; [exact Sh4| |discriminate]. intros _. split; [exact (Hw4 Hwd)|lia].
  - (* length mismatch: one more error value *) apply (amort_post_err _ (pop_nested (clast s3) dd)); [exact Sh4|reflexivity|ledger].
Qed.

Theorem ledger_amortized : (forall s, L_sch s) /\ (forall fl, L_fl fl) /\ (forall cs, L_cs cs).
Proof.
  apply sch_mutind.
  - (* SPrim *) intros k _ a cur. apply amort_dec_prim.
  - (* SStruct *) intros ty fl IH Hsm a cur. cbn [small_sch] in Hsm. apply andb_prop in Hsm. destruct Hsm as [Hn Hfl].
    apply N.leb_le in Hn.
    (* the one place where "at most NMAX fields" is used ([ledger] finds [Hn] in the context).  The failing outcome
       binds: the 8 header bytes (8 * A = 12288) pay for the descriptor (K_STRUCT), the header reads (32), the
       nested decoder (K_DEC), three error values and K_FIELD + 16 per field: 176 n <= 5344, so n <= 30 *)
    cbn [c_dec_value].
    apply (amort_le (amort_charge_then (K_STRUCT + K_FIELD * flist_len fl) _ _ _
             (amort_item_head _ _ _ _ _
                (amort_bind _ _ _ _ _ _ (amort_read_num 4) (fun len => amort_struct_body ty fl len (IH Hfl))))));
      ledger.
  - (* SDyn *) intros holder ki cs IH Hsm a cur. apply IH. exact Hsm.
  - (* FNil *) intros _ i explen actual nsum cur.
    apply (amort_le (amort_ret _)); ledger.
  - (* FCons *) intros a s IHs r IHr Hsm. cbn [small_fl] in Hsm. apply andb_prop in Hsm. destruct Hsm as [Hs Hr].
    apply amort_fields_cons; [apply IHs; exact Hs|apply IHr; exact Hr].
  - (* DNil *) intros _ key a.
    apply (amort_le (amort_charge_fail K_ERR (- SL))); ledger.
  - (* DCase *) intros k s IHs r IHr Hsm key a. cbn [small_cs] in Hsm. apply andb_prop in Hsm. destruct Hsm as [Hs Hr].
    cbn [c_dec_cases]. destruct (key_matches k key); [apply IHs; exact Hs|apply IHr; exact Hr].
Qed.

(* C05: one Decode call *)
Theorem decode_alloc_linear ty tag fl s x s' :
  (flist_len fl <=? NMAX)%N && small_fl fl = true -> wf_c s -> c_dec_top ty tag fl s = (x, s') ->
  Z.of_N (alloc s') <= Z.of_N (alloc s) + A * phi s + EB.
Proof.
  intros Hsm Hw H.
  destruct (proj1 ledger_amortized (SStruct ty fl) Hsm (top_attr tag) VNone _ _ _ Hw H) as [_ O R].
  pose proof (phi_nonneg s'). unfold Phi in *.
  destruct x as [v| | |]; [destruct (O eq_refl) as [_ P]|specialize (R eq_refl)..]; ledger.
Qed.

(* how many bytes an operation takes from its reader, at most - whatever the outcome *)
Definition cons {X} (m : M X) (k : N) : Prop :=
  forall s x s', wf_c s -> m s = (x, s') ->
    cshape s s' /\ (blen (rden (rd s)) <= blen (rden (rd s')) + k)%N /\ (is_ok x = true -> wf_c s').

Lemma cons_bind {X Y} (m1 : M X) (m2 : X -> M Y) k1 k2 :
  cons m1 k1 -> (forall v, cons (m2 v) k2) -> cons (mbind m1 m2) (k1 + k2).
Proof.
  intros H1 H2 s x s' Hw H. unfold mbind in H. destruct (m1 s) as [x1 s1] eqn:E1.
  destruct (H1 _ _ _ Hw E1) as (S1 & C1 & W1).
  destruct x1 as [v| | |]; try (injection H as <- <-; split; [exact S1|]; split; [lia|discriminate]).
  destruct (H2 v _ _ _ (W1 eq_refl) H) as (S2 & C2 & W2).
  split; [eapply cshape_trans; eassumption|]. split; [lia|exact W2].
Qed.

Lemma cons_weaken {X} (m : M X) k k' : (k <= k')%N -> cons m k -> cons m k'.
Proof. intros Hk H s x s' Hw Hm. destruct (H _ _ _ Hw Hm) as (S & C & W). split; [exact S|]. split; [lia|exact W]. Qed.

Lemma cons_bind_le {X Y} {m1 : M X} {m2 : X -> M Y} {k1 k2 k} :
  cons m1 k1 -> (forall v, cons (m2 v) k2) -> (k1 + k2 <= k)%N -> cons (mbind m1 m2) k.
Proof. intros H1 H2 Hk. exact (cons_weaken _ _ _ Hk (cons_bind _ _ _ _ H1 H2)). Qed.

Lemma cons_ret {X} (a : X) : cons (mret a) 0.
Proof. intros s x s' Hw H. unfold mret in H. injection H as <- <-. split; [apply cshape_refl|]. split; [lia|auto]. Qed.

Lemma cons_charge n : cons (charge n) 0.
Proof. intros s x s' Hw H. unfold charge in H. injection H as <- <-. split; [apply same_shape_refl|]. cbn [rd]. split; [lia|intros _; exact Hw]. Qed.

Lemma cons_charge_fail {X} n : cons (let^ _ := charge n in @mfail X Err) 0.
Proof.
  intros s x s' Hw H. unfold mbind, charge, mfail in H. injection H as <- <-.
  split; [apply same_shape_refl|]. cbn [rd]. split; [lia|discriminate].
Qed.

Lemma cons_read_n n : cons (c_read_n n) n.
Proof.
  intros s x s' Hw H. unfold c_read_n in H. destruct (readfull n (rd s)) as [x0 r'] eqn:Er. injection H as <- <-.
  exact (cons_of_took _ _ _ _ _ _ _ Hw (readfull_spec _ _ _ _ (proj1 Hw) Er)).
Qed.

Lemma cons_read_byte : cons c_read_byte 1.
Proof.
  intros s x s' Hw H. unfold c_read_byte in H. destruct (readbyte (rd s)) as [x0 r'] eqn:Er. injection H as <- <-.
  exact (cons_of_took _ _ _ _ _ _ _ Hw (rb_took _ _ _ (readbyte_any_spec _ _ _ (proj1 Hw) (proj2 Hw) Er))).
Qed.

Lemma cons_read_num k : cons (c_read_num k) k.
Proof. unfold c_read_num. apply (cons_bind_le (cons_read_n k) (fun b => cons_ret _)). lia. Qed.

Lemma cons_read_tag : cons c_read_tag 3.
Proof.
  intros s x s' Hw H. unfold c_read_tag in H. destruct (negb (clast s =? 0)%N).
  - injection H as <- <-. split; [apply same_shape_refl|]. cbn [rd]. split; [lia|intros _; exact Hw].
  - exact (cons_read_num 3 _ _ _ Hw H).
Qed.

Lemma cons_expect_tag t : cons (c_expect_tag t) 3.
Proof.
  unfold c_expect_tag. refine (cons_bind_le (k2 := 0) cons_read_tag _ _); [|lia].
  intros t'. destruct (negb (t =? t')%N && negb (t =? ANY_TAG)%N); [apply cons_charge_fail|apply cons_ret].
Qed.

Lemma cons_expect_type v : cons (c_expect_type v) 1.
Proof.
  unfold c_expect_type, c_read_type.
  refine (cons_bind_le (k2 := 0) (cons_bind _ _ _ _ cons_read_byte (fun x => cons_ret _)) _ _); [|lia].
  intros x. destruct (x =? v)%N; [apply cons_ret|apply cons_charge_fail].
Qed.

(* the body of a structure takes at most its declared length from the enclosing reader, on every outcome *)
Lemma cons_struct_body ty fl len : small_fl fl = true ->
  cons (c_struct_body ty fl len) len.
Proof.
  intros Hsm s3 x s' Hw H. unfold c_struct_body in H.
  destruct (c_dec_fields fl O len 0 0 (zeros_of fl) (push_nested len s3)) as [xf dd] eqn:Ef.
  (* [ledger_amortized] is used for the shape of the reader after the nested run on EVERY outcome (the simulation
     gives it on success only); that is where the hypothesis on the number of fields comes from *)
  destruct (proj1 (proj2 ledger_amortized) fl Hsm _ _ _ _ _ _ _ _ (push_nested_wf len _ Hw) Ef) as [Shd Od _].
  destruct (pop_nested_spec _ _ _ Hw Shd) as (Sh4 & Hw4 & buf & n' & _ & Hdrop).
  (* every outcome leaves the popped reader; what lies beyond the nested LimitedReader is untouched *)
  assert (E: rd s' = rd (pop_nested (clast s3) dd) /\ (is_ok x = true -> is_ok xf = true)).
  { destruct xf as [[[vs actual] nsum]| | |]; [destruct (actual =? len)%N|..]; injection H as <- <-; auto. }
  destruct E as [E Hx]. unfold cshape, wf_c. rewrite E.
  split; [exact Sh4|]. split; [|intros Hok; exact (Hw4 (proj1 (Od (Hx Hok))))].
  apply (f_equal blen) in Hdrop. rewrite !dropN_blen in Hdrop. lia.
Qed.

(* the first eight bytes of a structure: getStructDesc's charge, then tag, type and length *)
Definition c_struct_hdr (c tag : N) : M N :=
  let^ _ := charge c in let^ _ := c_expect_tag tag in let^ _ := c_expect_type tc_structure in c_read_num 4.

Lemma struct_value_split ty fl a cur s :
  c_dec_value (SStruct ty fl) a cur s =
  mbind (c_struct_hdr (K_STRUCT + K_FIELD * flist_len fl) (fa_tag a))
        (c_struct_body ty fl) s.
Proof.
  cbn [c_dec_value]. unfold c_struct_hdr, mbind, charge.
  destruct (c_expect_tag _ _) as [[[]| | |] s1]; try reflexivity.
  destruct (c_expect_type _ _) as [[[]| | |] s2]; reflexivity.
Qed.

Lemma cons_struct_hdr c tag : cons (c_struct_hdr c tag) 8.
Proof.
  apply (cons_bind_le (cons_charge c)
           (fun _ => cons_bind _ _ _ _ (cons_expect_tag tag) (fun _ => cons_bind _ _ _ _ (cons_expect_type tc_structure) (fun _ => cons_read_num 4)))).
  lia.
Qed.

Lemma sim_struct_hdr c tag :
  sim (c_struct_hdr c tag)
      (fun st => let* s1 := expect_tag tag st in let* s2 := expect_num 1 tc_structure s1 in read_num 4 s2).
Proof.
  apply sim_charge_then. apply sim_bind0; [apply sim_expect_tag|]. apply sim_bind0; [apply sim_expect_type|].
  apply (sim_read_num 4).
Qed.

Lemma struct_hdr_length tag st len st' :
  (let* s1 := expect_tag tag st in let* s2 := expect_num 1 tc_structure s1 in read_num 4 s2) = Ok (len, st') ->
  last st = 0%N -> len = unbe (firstn 4 (skipn 4 (rest st))) 0.
Proof.
  intros H Hl. binv H. binv Hk. apply expect_num_spec in Hb0.
  assert (Hok: lastok st) by (unfold lastok; lia).
  destruct (item_header_inv _ _ _ _ _ _ _ Hok Hb Hb0 Hk0) as (t & L & _ & Ht & Hy & Hn & _).
  rewrite (logical_zero _ Hl) in L. rewrite L. symmetry.
  exact (proj1 (proj2 (proj2 (header_split t tc_structure len (rest st') Ht Hy Hn)))).
Qed.

Theorem struct_no_overread ty fl a cur : (flist_len fl <=? NMAX)%N && small_fl fl = true ->
  forall s x s', wf_c s -> c_dec_value (SStruct ty fl) a cur s = (x, s') ->
    cshape s s' /\
    exists len, (blen (rden (rd s)) <= blen (rden (rd s')) + 8 + len)%N /\
                (8 <= blen (rden (rd s)) -> clast s = 0%N -> blen (rden (rd s)) <= blen (rden (rd s')) + 8 + unbe (firstn 4 (skipn 4 (rden (rd s)))) 0)%N.
Proof.
  intros Hsm s x s' Hw H. apply andb_prop in Hsm. destruct Hsm as [_ Hfl].
  rewrite struct_value_split in H. unfold mbind in H.
  destruct (c_struct_hdr _ _ s) as [xl s3] eqn:Eh.
  destruct (cons_struct_hdr _ _ _ _ _ Hw Eh) as (S3 & C3 & W3).
  destruct xl as [len| | |]; try (injection H as <- <-; split; [exact S3|]; exists 0%N; split; [lia|intros; lia]).
  destruct (cons_struct_body ty fl len Hfl _ _ _ (W3 eq_refl) H) as (S4 & C4 & _).
  split; [exact (cshape_trans _ _ _ S3 S4)|]. exists len. split; [lia|]. intros _ Hl0.
  (* the length that was read is the one at offset 4 of the input: so says the flat decoder *)
  apply sim_struct_hdr, sim_post_iff in Eh; [|exact Hw]. destruct Eh as (Eh & _).
  apply struct_hdr_length in Eh; [|exact Hl0]. cbn [flat rest] in Eh. lia.
Qed.
