(* ReadersProofs.v - the reader objects of Readers.v deliver exactly the bytes of the transport,
   whatever the read sizes; hence the decoder on reader objects computes what the flat decoder
   of Codec.v computes (C03 delivery independence, C06 chunking). *)
From Coq Require Import String.
From Coq Require Import List NArith ZArith Bool Lia Strings.Byte.
Require Import Bytes Schema Codec CodecProofs DenoteProofs Readers.
Import ListNotations.
Open Scope N_scope.

(* a bufio.Reader holds an error back only when everything below it is used up, and that error is io.EOF if the
   transport ends with io.EOF *)
Fixpoint wf_layers (l : list layer) (b : base) : Prop :=
  match l with
  | [] => True
  | LBuf size buf err :: r =>
      0 < size /\ (forall e, err = Some e -> den r b = [] /\ (b_term b = EOF -> e = EOF)) /\ wf_layers r b
  | LLim n :: r => wf_layers r b
  end.

(* what lies beyond each LimitedReader's limit: untouched by anything read through it *)
Fixpoint beyonds (l : list layer) (b : base) : list bytes :=
  match l with
  | [] => []
  | LBuf _ _ _ :: r => beyonds r b
  | LLim n :: r => dropN n (den r b) :: beyonds r b
  end.

Definition lkind (x : layer) : bool := match x with LBuf _ _ _ => true | LLim _ => false end.
Definition lsize (x : layer) : N := match x with LBuf size _ _ => size | LLim _ => 0 end.

(* fewer than 100 consecutive empty reads anywhere in the script (bufio's ErrNoProgress rule) *)
Fixpoint zrun (l : list N) : nat := match l with 0 :: r => S (zrun r) | _ => O end.
Fixpoint stall_free (l : list N) : Prop :=
  match l with [] => True | _ :: r => (zrun l < 100)%nat /\ stall_free r end.

Lemma stall_free_tl l : stall_free l -> stall_free (tl l).
Proof. destruct l; cbn; [trivial|tauto]. Qed.

Lemma stall_free_zrun l : stall_free l -> (zrun l < 100)%nat.
Proof. destruct l; cbn [stall_free]; [cbn; lia|tauto]. Qed.

(* [stall_free] as one number, so that an example script is checked by evaluating a comparison *)
Fixpoint longest_zrun (l : list N) : nat :=
  match l with [] => O | _ :: r => Nat.max (zrun l) (longest_zrun r) end.

Lemma stall_free_longest l : stall_free l <-> (longest_zrun l < 100)%nat.
Proof. induction l as [|n l IH]; cbn [stall_free longest_zrun]; [lia|]. rewrite IH. lia. Qed.

(* one Read; [rp_sizes] and [rp_zero] are what the fuel of the loops rests on, [rp_kinds] and [rp_beyond] what
   nesting does *)
Record read_post (l : list layer) (b : base) (k : N) (d : bytes) (e : option ioerr) (l' : list layer) (b' : base) : Prop := {
  rp_den : den l b = d ++ den l' b';
  rp_len : blen d <= k;
  rp_wf : wf_layers l' b';
  rp_err : forall x, e = Some x -> den l' b' = [] /\ (b_term b = EOF -> x = EOF);
  rp_term : b_term b' = b_term b;
  rp_weof : b_weof b' = b_weof b;
  rp_sizes : b_sizes b' = b_sizes b \/ b_sizes b' = tl (b_sizes b);
  rp_zero : d = [] -> e = None -> exists r, b_sizes b = 0 :: r /\ b_sizes b' = r;
  rp_depth : length l' = length l;
  rp_kinds : map lkind l' = map lkind l /\ map lsize l' = map lsize l;
  rp_beyond : beyonds l' b' = beyonds l b }.

Lemma kinds_cons x x' l l' : lkind x' = lkind x -> lsize x' = lsize x ->
  map lkind l' = map lkind l /\ map lsize l' = map lsize l ->
  map lkind (x' :: l') = map lkind (x :: l) /\ map lsize (x' :: l') = map lsize (x :: l).
Proof. intros H1 H2 [K1 K2]. cbn [map]. split; congruence. Qed.

(* the fields of read_post that a case leaves as they are, or inherits from the layers below, go here *)
Create HintDb rp.
#[local] Hint Resolve N.le_0_l kinds_cons : rp.
#[local] Hint Extern 1 => discriminate : rp.
Ltac rp_split := apply Build_read_post; cbn [den wf_layers app length b_data b_sizes b_term b_weof base_with beyonds];
  rewrite ?blen_nil; auto with rp.

Lemma base_read_spec b k d e b' : 0 < k -> base_read b k = (d, e, b') -> read_post [] b k d e [] b'.
Proof.
  intros Hk H. unfold base_read in H.
  destruct (b_data b) as [|x dat] eqn:Ed.
  - injection H as <- <- <-. rp_split.
    intros y Hy. injection Hy as <-. auto.
  - set (n := match b_sizes b with [] => blen (x :: dat) | s :: _ => s end) in H.
    destruct (N.eqb_spec n 0) as [E0|N0].
    + injection H as <- <- <-. rp_split.
      intros _ _. subst n. destruct (b_sizes b) as [|s r]; [rewrite blen_cons in E0; lia|].
      subst s. exists r. split; reflexivity.
    + injection H as <- <- <-. rp_split.
      * rewrite Ed. symmetry. apply takeN_dropN.
      * rewrite takeN_blen. lia.
      * intros y Hy. destruct (dropN (N.min n k) (x :: dat)); [|discriminate].
        destruct (b_weof b); [|discriminate]. injection Hy as <-. auto.
      * intros Hd _. exfalso. revert Hd. apply takeN_pos_nonnil; [lia|discriminate].
Qed.

Lemma rread_spec l : forall b k d e l' b', 0 < k -> wf_layers l b ->
  rread l b k = (d, e, l', b') -> read_post l b k d e l' b'.
Proof.
  induction l as [|ly r IH]; intros b k d e l' b' Hk Hwf H.
  - cbn [rread] in H. destruct (base_read b k) as [[d0 e0] b0] eqn:Eb. injection H as <- <- <- <-.
    apply base_read_spec; assumption.
  - destruct ly as [size buf err|n].
    + (* bufio *)
      destruct Hwf as (Hsz & Herr & Hwr).
      cbn [rread] in H. destruct buf as [|x buf].
      * destruct err as [e0|].
        -- (* the error kept from the last read: everything below is used up ([Herr]) *)
           injection H as <- <- <- <-. destruct (Herr e0 eq_refl) as [Hd He]. rp_split.
        -- destruct (N.leb_spec size k) as [Hle|Hgt].
           ++ destruct (rread r b k) as [[[d0 e0] r0] b0] eqn:Er. injection H as <- <- <- <-.
              destruct (IH _ _ _ _ _ _ Hk Hwr Er) as [D L W E T We S Z Len Kd By]. rp_split.
           ++ destruct (rread r b size) as [[[d0 e0] r0] b0] eqn:Er.
              destruct (IH _ _ _ _ _ _ Hsz Hwr Er) as [D L W E T We S Z Len Kd By].
              destruct d0 as [|y d0].
              ** injection H as <- <- <- <-. rp_split.
              ** injection H as <- <- <- <-. rp_split.
                 --- rewrite D. rewrite app_assoc. rewrite takeN_dropN. reflexivity.
                 --- rewrite takeN_blen. apply N.le_min_l.
                 --- split; [assumption|]. split; [|assumption].
                     intros y0 Hy0. destruct (E y0 Hy0) as [E1 E2]. split; [assumption|].
                     intros Ht. apply E2. congruence.
                 --- intros Hd _. exfalso. revert Hd. apply takeN_pos_nonnil; [assumption|discriminate].
      * injection H as <- <- <- <-. rp_split.
        -- rewrite app_assoc. rewrite takeN_dropN. reflexivity.
        -- rewrite takeN_blen. apply N.le_min_l.
        -- intros Hd _. exfalso. revert Hd. apply takeN_pos_nonnil; [assumption|discriminate].
    + (* limit *)
      cbn [wf_layers] in Hwf. cbn [rread] in H.
      destruct (N.eqb_spec n 0) as [E0|N0].
      * injection H as <- <- <- <-. subst n. rp_split.
        intros y Hy. injection Hy as <-. rewrite takeN_0. split; reflexivity.
      * destruct (rread r b (N.min k n)) as [[[d0 e0] r0] b0] eqn:Er. injection H as <- <- <- <-.
        assert (Hk' : 0 < N.min k n) by lia.
        destruct (IH _ _ _ _ _ _ Hk' Hwf Er) as [D L W E T We S Z Len Kd By]. rp_split.
        -- rewrite D. apply takeN_app_le. lia.
        -- lia.
        -- intros y Hy. destruct (E y Hy) as [E1 E2]. rewrite E1, takeN_nil. split; [reflexivity|assumption].
        -- (* rp_beyond: the limit has moved by what was delivered *)
           f_equal; [|assumption]. rewrite D. symmetry. apply dropN_app_le. lia.
Qed.

Definition wf_reader (r : reader) : Prop := wf_layers (ls r) (bs r) /\ stall_free (b_sizes (bs r)).

Lemma sizes_step_stall (s s' : list N) : (s' = s \/ s' = tl s) -> stall_free s -> stall_free s'.
Proof. intros [->| ->] H; [assumption|apply stall_free_tl; assumption]. Qed.

(* what every operation keeps of a reader (the last clause, that the script does not grow, is for the fuel) *)
Definition same_shape (r r' : reader) : Prop :=
  b_term (bs r') = b_term (bs r) /\
  (map lkind (ls r') = map lkind (ls r) /\ map lsize (ls r') = map lsize (ls r)) /\
  beyonds (ls r') (bs r') = beyonds (ls r) (bs r) /\
  (length (b_sizes (bs r')) <= length (b_sizes (bs r)))%nat.

Lemma same_shape_refl r : same_shape r r.
Proof. unfold same_shape. auto. Qed.

Lemma same_shape_trans a b c : same_shape a b -> same_shape b c -> same_shape a c.
Proof.
  unfold same_shape. intros (A1 & (A2 & A2') & A3 & A4) (B1 & (B2 & B2') & B3 & B4).
  split; [congruence|]. split; [split; congruence|]. split; [congruence|lia].
Qed.

(* [r] has handed out [d], with the error [e] at the end if there is one, and is now [r']: what one Read does
   ([rd_read_spec]) and, by [gave_nil] and [gave_app], what every loop of Reads does *)
Record gave (r : reader) (d : bytes) (e : option ioerr) (r' : reader) : Prop := {
  gv_wf : wf_reader r';
  gv_shape : same_shape r r';
  gv_den : rden r = d ++ rden r';
  gv_err : forall x, e = Some x -> rden r' = [] /\ (b_term (bs r) = EOF -> x = EOF) }.

Lemma gave_nil r : wf_reader r -> gave r [] None r.
Proof. intros Hw. split; [exact Hw|apply same_shape_refl|reflexivity|discriminate]. Qed.

Lemma gave_app r d r1 d' e r' : gave r d None r1 -> gave r1 d' e r' -> gave r (d ++ d') e r'.
Proof.
  intros [_ S D _] [W' S' D' E']. split; [exact W'|eapply same_shape_trans; eassumption|rewrite D, D'; apply app_assoc|].
  rewrite <- (proj1 S). exact E'.
Qed.

(* one Read on the whole stack; the last part: a Read that delivers nothing and no error has used up an empty read
   of the script, which is why the loops below end *)
Lemma rd_read_spec r k d e r' : 0 < k -> wf_reader r -> rd_read r k = (d, e, r') ->
  gave r d e r' /\ blen d <= k /\
  (d = [] -> e = None -> exists q, b_sizes (bs r) = 0 :: q /\ b_sizes (bs r') = q).
Proof.
  intros Hk [Hw Hs] H. unfold rd_read in H.
  destruct (rread (ls r) (bs r) k) as [[[d0 e0] l0] b0] eqn:Er. injection H as <- <- <-.
  destruct (rread_spec _ _ _ _ _ _ _ Hk Hw Er) as [D L W E T We S Z Len Kd By].
  split; [|split; [exact L|exact Z]].
  apply Build_gave; unfold wf_reader, same_shape; cbn [ls bs]; try assumption.
  - split; [assumption|]. eapply sizes_step_stall; eassumption.
  - split; [assumption|]. split; [assumption|]. split; [assumption|].
    destruct S as [-> | ->]; [lia|]. destruct (b_sizes (bs r)); cbn; lia.
Qed.

(* the error class of a short read: io.EOF only if nothing at all was there and the transport ended cleanly *)
Definition short_class {A} (x : dres A) (avail : bytes) (term : ioerr) : Prop :=
  (x = ErrEOF \/ x = Err) /\ (x = ErrEOF -> avail = []) /\
  (term = EOF -> x = match avail with [] => ErrEOF | _ :: _ => Err end).

(* io.ReadAtLeast, bytes.Buffer.ReadFrom under a LimitedReader and discard.ReadFrom are this one loop; they differ
   in the size they ask of each Read ([ask]) and in their bookkeeping ([pre] at the head of the loop, [upd] after
   a Read), neither of which touches the reader *)
Inductive pull_end := PFuel | PDone | PShort (y : ioerr).

Section Pull.
  Context {St : Type} (pre : St -> St) (ask : St -> N -> N) (upd : St -> bytes -> St).

  Fixpoint pull (fuel : nat) (r : reader) (left : N) (st : St) : St * pull_end * reader :=
    match fuel with
    | O => (st, PFuel, r)
    | S f =>
        let st := pre st in
        if left =? 0 then (st, PDone, r)
        else
          let '(d, e, r') := rd_read r (ask st left) in
          match e with
          | None => pull f r' (left - blen d) (upd st d)
          | Some y => (upd st d, if left - blen d =? 0 then PDone else PShort y, r')
          end
    end.

  (* how a run that was to take [left] bytes and has taken [d] may have ended *)
  Definition ended (left : N) (out : pull_end) (d : bytes) (e : option ioerr) : Prop :=
    match out with
    | PFuel => False
    | PDone => blen d = left
    | PShort y => e = Some y /\ blen d < left
    end.

  (* an invariant of the bookkeeping, relative to what has been read so far *)
  Variable I : St -> bytes -> Prop.
  Hypothesis pre_ok : forall st g, I st g -> I (pre st) g.
  Hypothesis upd_ok : forall st g d, I st g -> I (upd st d) (g ++ d).
  Hypothesis ask_ok : forall st left, 0 < left -> 0 < ask (pre st) left <= left.

  (* every Read that does not end the loop delivers a byte or uses up an entry of the script *)
  Lemma pull_spec fuel : forall r left st g st' out r',
    wf_reader r -> (Nat.min (N.to_nat left) (length (rden r)) + length (b_sizes (bs r)) < fuel)%nat ->
    I st g -> pull fuel r left st = (st', out, r') ->
    exists d e, I st' (g ++ d) /\ gave r d e r' /\ ended left out d e.
  Proof.
    induction fuel as [|f IH]; intros r left st g st' out r' Hw Hf Hi H; [lia|].
    cbn [pull] in H. apply pre_ok in Hi. destruct (N.eqb_spec left 0) as [E0|N0].
    - injection H as <- <- <-. subst left. exists [], None. rewrite app_nil_r.
      split; [exact Hi|]. split; [apply gave_nil, Hw|reflexivity].
    - destruct (ask_ok st left) as [Hk Hkl]; [lia|].
      destruct (rd_read r (ask (pre st) left)) as [[d e] r1] eqn:Er.
      destruct (rd_read_spec _ _ _ _ _ Hk Hw Er) as (G & L & Z). apply (upd_ok _ _ d) in Hi.
      destruct e as [y|].
      + injection H as <- <- <-. exists d, (Some y). split; [exact Hi|]. split; [exact G|].
        destruct (N.eqb_spec (left - blen d) 0); cbn [ended]; [lia|]. split; [reflexivity|lia].
      + assert (Hf': (Nat.min (N.to_nat (left - blen d)) (length (rden r1)) + length (b_sizes (bs r1)) < f)%nat).
        { pose proof (gv_shape _ _ _ _ G) as (_ & _ & _ & S). rewrite (gv_den _ _ _ _ G), app_length in Hf.
          unfold blen. destruct d as [|z q].
          - (* nothing delivered and no error: the Read has used up an entry of the script *)
            destruct (Z eq_refl eq_refl) as (q & Q1 & Q2). rewrite Q1, Q2 in *. cbn [length] in *. lia.
          - (* a byte delivered: less is left *) cbn [length] in *. lia. }
        destruct (IH _ _ _ _ _ _ _ (gv_wf _ _ _ _ G) Hf' Hi H) as (d' & e' & Hi' & G' & En).
        exists (d ++ d'), e'. rewrite app_assoc. split; [exact Hi'|]. split; [exact (gave_app _ _ _ _ _ _ G G')|].
        destruct out; cbn [ended] in *; rewrite ?blen_app; [exact En|lia|]. split; [apply En|lia].
  Qed.
End Pull.

(* [x], [r'] are the outcome of an operation that takes [n] bytes from [r]: it has taken [d]; either that is the
   [n] bytes and it has returned [v] of them, or it is less, nothing is left, and it has failed as a short read
   does that found [avail] *)
Definition took {X} (n : N) (r : reader) (x : dres X) (r' : reader) (v : bytes -> X) (avail : bytes) : Prop :=
  wf_reader r' /\ same_shape r r' /\
  exists d, rden r = d ++ rden r' /\
            (blen d = n /\ x = Ok (v d) \/ blen d < n /\ rden r' = [] /\ short_class x avail (b_term (bs r))).

Lemma pull_took {X} r n out d e r' (res : pull_end -> dres X) v avail :
  gave r d e r' -> ended n out d e -> res PDone = Ok (v d) ->
  (forall y, (b_term (bs r) = EOF -> y = EOF) -> d = rden r -> short_class (res (PShort y)) avail (b_term (bs r))) ->
  took n r (res out) r' v avail.
Proof.
  intros [W S D E] En Hdone Hshort. split; [exact W|]. split; [exact S|]. exists d. split; [exact D|].
  destruct out as [| |y]; [contradiction|left; auto|right].
  (* short: the error came, so nothing is left *)
  destruct En as [-> Hlt]. destruct (E y eq_refl) as [Hn Hy]. rewrite Hn, app_nil_r in D. auto.
Qed.

Lemma short_class_intro {A} (avail : bytes) y t : (t = EOF -> y = EOF) ->
  @short_class A (match avail, y with [], EOF => ErrEOF | _, _ => Err end) avail t.
Proof.
  intros Hy. unfold short_class. destruct avail, y; repeat split; auto; try discriminate.
  intros Ht. specialize (Hy Ht). discriminate.
Qed.

Lemma readfull_loop_pull fuel : forall r need acc,
  readfull_loop fuel r need acc =
  let '(acc', out, r') := pull (fun a => a) (fun _ left => left) (@app byte) fuel r need acc in
  (match out with
   | PFuel => OutOfFuel
   | PDone => Ok acc'
   | PShort y => match acc', y with [], EOF => ErrEOF | _, _ => Err end
   end, r').
Proof.
  induction fuel as [|f IH]; intros r need acc; cbn [readfull_loop pull]; [reflexivity|].
  destruct (need =? 0); [reflexivity|]. destruct (rd_read r need) as [[d e] r1].
  destruct e as [y|]; [|apply IH]. destruct (need - blen d =? 0); [reflexivity|]. destruct (acc ++ d), y; reflexivity.
Qed.

Lemma readfull_loop_spec fuel : forall r need acc x r',
  wf_reader r -> (N.to_nat need + length (b_sizes (bs r)) < fuel)%nat ->
  readfull_loop fuel r need acc = (x, r') ->
  took need r x r' (app acc) (acc ++ rden r).
Proof.
  intros r need acc x r' Hw Hf. rewrite readfull_loop_pull.
  destruct (pull _ _ _ _ _ _ _) as [[acc' out] r1] eqn:E. intros H. injection H as <- <-.
  (* the hypotheses of [pull_spec] in their order: pre_ok, upd_ok, ask_ok, the reader, the fuel, the invariant at the start *)
  eapply pull_spec with (I := fun a g => a = acc ++ g) (g := []) in E;
    [|auto|intros ? ? ? ->; symmetry; apply app_assoc|lia|exact Hw|lia|symmetry; apply app_nil_r].
  destruct E as (d & e & -> & G & En).
  apply (pull_took _ _ _ _ _ _ (fun out => match out with PFuel => OutOfFuel | PDone => Ok (acc ++ d)
           | PShort y => match acc ++ d, y with [], EOF => ErrEOF | _, _ => Err end end) _ _ G En); [reflexivity|].
  intros y Hy ->. apply short_class_intro, Hy.
Qed.

Lemma readfull_spec n r x r' : wf_reader r -> readfull n r = (x, r') ->
  took n r x r' (fun b => b) (rden r).
Proof. intros Hw H. unfold readfull in H. apply readfull_loop_spec in H; [exact H|assumption|lia]. Qed.

Lemma fill_loop_spec i : forall r size d e l' b',
  0 < size -> wf_reader r -> (zrun (b_sizes (bs r)) < i)%nat ->
  fill_loop i (ls r) (bs r) size = (d, e, l', b') -> gave r d e {| ls := l'; bs := b' |} /\ (e = None -> d <> []).
Proof.
  induction i as [|j IH]; intros r size d e l' b' Hs Hw Hz H; [lia|].
  cbn [fill_loop] in H. destruct (rread (ls r) (bs r) size) as [[[d0 e0] l0] b0] eqn:Er.
  assert (Er': rd_read r size = (d0, e0, {| ls := l0; bs := b0 |})) by (unfold rd_read; rewrite Er; reflexivity).
  destruct (rd_read_spec _ _ _ _ _ Hs Hw Er') as (G & _ & Z).
  destruct e0 as [y|]; [injection H as <- <- <- <-; split; [exact G|discriminate]|].
  destruct d0 as [|z q]; [|injection H as <- <- <- <-; split; [exact G|discriminate]].
  (* an empty Read without error: the run of empty reads at the head of the script is one shorter *)
  destruct (Z eq_refl eq_refl) as (q & Q1 & Q2). rewrite Q1 in Hz. cbn [bs zrun] in Hz, Q2.
  destruct (IH {| ls := l0; bs := b0 |} _ _ _ _ _ Hs (gv_wf _ _ _ _ G) ltac:(cbn [bs]; rewrite Q2; lia) H) as [G' N'].
  split; [exact (gave_app _ [] _ _ _ _ G G')|exact N'].
Qed.

Record rb_post (r : reader) (x : dres byte) (r' : reader) : Prop := {
  rb_wf : wf_reader r';
  rb_shape : same_shape r r';
  rb_res : match rden r with
           | y :: rest => x = Ok y /\ rden r' = rest
           | [] => short_class x [] (b_term (bs r)) /\ rden r' = []
           end }.

Lemma short_class_eclass {A} e t : (t = EOF -> e = EOF) -> short_class (@eclass A e) [] t.
Proof. exact (short_class_intro [] e t). Qed.

Definition on_buf (size : N) (buf : bytes) (err : option ioerr) (r : reader) : reader :=
  {| ls := LBuf size buf err :: ls r; bs := bs r |}.

Lemma on_buf_shape size buf err buf' err' r r' : same_shape r r' -> same_shape (on_buf size buf err r) (on_buf size buf' err' r').
Proof.
  unfold same_shape. cbn [on_buf ls bs map lkind lsize beyonds]. intros (T & (K1 & K2) & By & Z).
  split; [exact T|]. split; [split; congruence|]. split; assumption.
Qed.

(* ReadByte on a bufio.Reader over [r0]: what it holds, or else what a fill brings, is something [r0] [gave];
   it hands out the first byte of that and keeps the rest with the error, or hands out the error *)
Lemma rb_post_byte size buf err r0 d e r1 y q : 0 < size -> gave r0 d e r1 -> buf ++ d = y :: q ->
  rb_post (on_buf size buf err r0) (Ok y) (on_buf size q e r1).
Proof.
  intros Hs [[Wl Ws] Sh D E] Hb. split; [|apply on_buf_shape, Sh|].
  - split; [|exact Ws]. cbn [on_buf ls bs wf_layers]. rewrite (proj1 Sh). auto.
  - change (rden (on_buf size buf err r0)) with (buf ++ rden r0). rewrite D, app_assoc, Hb. split; reflexivity.
Qed.

Lemma rb_post_end size err r0 e0 r1 : 0 < size -> gave r0 [] (Some e0) r1 ->
  rb_post (on_buf size [] err r0) (eclass e0) (on_buf size [] None r1).
Proof.
  intros Hs [[Wl Ws] Sh D E]. destruct (E e0 eq_refl) as [E1 E2]. split; [|apply on_buf_shape, Sh|].
  - split; [|exact Ws]. split; [exact Hs|]. split; [discriminate|exact Wl].
  - change (rden (on_buf size [] err r0)) with (rden r0). rewrite D, E1. split; [apply short_class_eclass, E2|exact E1].
Qed.

Lemma readbyte_spec r x r' : wf_reader r -> ls r <> [] -> (forall n l, ls r <> LLim n :: l) ->
  readbyte r = (x, r') -> rb_post r x r'.
Proof.
  intros Hw Hne Hnl H. destruct r as [[|[size buf err|n] l] b]; [contradiction| |exfalso; eapply Hnl; reflexivity].
  destruct Hw as [(Hsz & Herr & Hwl) Hsf]. unfold readbyte in H. cbn [ls bs] in H, Herr, Hwl, Hsf.
  set (r0 := {| ls := l; bs := b |}). assert (Hw0: wf_reader r0) by (split; assumption).
  assert (G0: gave r0 [] err r0) by (split; [exact Hw0|apply same_shape_refl|reflexivity|exact Herr]).
  destruct buf as [|y buf].
  - destruct err as [e0|].
    + injection H as <- <-. exact (rb_post_end _ _ _ _ _ Hsz G0).
    + destruct (fill_loop 100 l b size) as [[[d e] l0] b0] eqn:Ef.
      destruct (fill_loop_spec _ r0 _ _ _ _ _ Hsz Hw0 (stall_free_zrun _ Hsf) Ef) as [G N].
      destruct d as [|z q].
      * destruct e as [e0|]; [|exfalso; apply (N eq_refl); reflexivity].
        injection H as <- <-. exact (rb_post_end _ _ _ _ _ Hsz G).
      * injection H as <- <-. exact (rb_post_byte _ [] _ _ _ _ _ _ _ Hsz G eq_refl).
  - injection H as <- <-. exact (rb_post_byte _ _ _ _ _ _ _ _ _ Hsz G0 (app_nil_r _)).
Qed.

(* the source is itself an io.ByteScanner (bytes.Reader): no layers *)
Lemma readbyte_base_spec r x r' : ls r = [] -> readbyte r = (x, r') ->
  ls r' = [] /\ b_term (bs r') = b_term (bs r) /\ b_sizes (bs r') = b_sizes (bs r) /\
  match rden r with
  | y :: rest => x = Ok y /\ rden r' = rest
  | [] => x = ErrEOF /\ rden r' = []
  end.
Proof.
  intros El H. unfold readbyte in H. rewrite El in H. unfold rden. rewrite El. cbn [den].
  destruct (b_data (bs r)) as [|y d] eqn:Ed.
  - injection H as <- <-. rewrite El. auto.
  - injection H as <- <-. auto.
Qed.

Definition rmeasure (r : reader) : nat := (length (rden r) + length (b_sizes (bs r)))%nat.

(* bytes.Buffer.grow(MinRead) on (contents, capacity, bytes allocated so far) *)
Definition grow (st : bytes * N * N) : bytes * N * N :=
  let '(acc, cap, al) := st in
  if min_read <=? cap - blen acc then st
  else let c := N.max (blen acc + min_read) (2 * cap) in (acc, c, al + c).

Definition copy_pull :=
  pull grow (fun '(acc, cap, _) left => N.min (cap - blen acc) left) (fun '(acc, cap, al) d => (acc ++ d, cap, al)).

Lemma copy_loop_pull fuel : forall r left cap acc al,
  copy_loop fuel r left cap acc al =
  let '(acc', _, al', out, r') := copy_pull fuel r left (acc, cap, al) in
  (match out with PFuel => OutOfFuel | PDone => Ok acc' | PShort y => eclass y end, r', al').
Proof.
  unfold copy_pull. induction fuel as [|f IH]; intros r left cap acc al; cbn [copy_loop pull]; [reflexivity|].
  unfold grow. destruct (min_read <=? cap - blen acc);
    (destruct (left =? 0); [reflexivity|]); destruct (rd_read r _) as [[d e] r1];
    (destruct e as [[]|]; [| |apply IH]); destruct (left - blen d =? 0); reflexivity.
Qed.

(* besides what every such loop does: the buffer's capacity stays within twice its contents + 1 KiB, and so
   does what was allocated for it (1 KiB = 2 * MinRead:
   grow leaves the buffer alone unless fewer than MinRead bytes are free) *)
Lemma copy_pull_spec fuel r left acc cap al acc' cap' al' out r' :
  wf_reader r -> (rmeasure r < fuel)%nat ->
  copy_pull fuel r left (acc, cap, al) = (acc', cap', al', out, r') ->
  exists d e, (acc' = acc ++ d /\
               (al <= 2 * cap -> cap <= 2 * blen acc + 1024 -> al' <= 2 * cap' /\ cap' <= 2 * blen acc' + 1024)) /\
              gave r d e r' /\ ended left out d e.
Proof.
  intros Hw Hf H.
  eapply (pull_spec _ _ _ (fun '(a, c, l) g => a = acc ++ g /\
            (al <= 2 * cap -> cap <= 2 * blen acc + 1024 -> l <= 2 * c /\ c <= 2 * blen a + 1024))) with (g := []) in H;
    [exact H|..].
  - (* pre_ok: grow doubles, or makes room for MinRead *)
    intros [[a c] l] g [-> Hi]. unfold grow, min_read. destruct (N.leb_spec 512 (c - blen (acc ++ g))); split; auto; lia.
  - (* upd_ok *) intros [[a c] l] g d [-> Hi]. rewrite app_assoc, blen_app. split; [reflexivity|lia].
  - (* ask_ok: after grow there is room *)
    intros [[a c] l] n Hn. unfold grow, min_read. destruct (N.leb_spec 512 (c - blen a)); lia.
  - exact Hw.
  - unfold rmeasure in Hf. lia.
  - rewrite app_nil_r. auto.
Qed.

(* a short CopyN is io.EOF when the source ended cleanly, even after some bytes, and the I/O error otherwise: the
   class of a short ReadFull that found nothing *)
Lemma copy_buf_spec l r x r' al : wf_reader r -> copy_buf l r = (x, r', al) ->
  took l r x r' (fun b => b) [].
Proof.
  intros Hw. unfold copy_buf. rewrite copy_loop_pull.
  destruct (copy_pull _ _ _ _) as [[[[acc' cap'] al'] out] r1] eqn:E. intros H. injection H as <- <- <-.
  apply copy_pull_spec in E; [|exact Hw|unfold rmeasure; lia]. destruct E as (d & e & [-> _] & G & En).
  apply (pull_took _ _ _ _ _ _ (fun out => match out with PFuel => OutOfFuel | PDone => Ok d | PShort y => eclass y end) _ _ G En);
    [reflexivity|]. intros y Hy _. apply short_class_eclass, Hy.
Qed.

Lemma discard_loop_pull fuel : forall r left,
  discard_loop fuel r left =
  let '(_, out, r') := pull (fun u : unit => u) (fun _ left => N.min discard_buf left) (fun u _ => u) fuel r left tt in
  (match out with PFuel => OutOfFuel | PDone => Ok tt | PShort y => eclass y end, r').
Proof.
  induction fuel as [|f IH]; intros r left; cbn [discard_loop pull]; [reflexivity|].
  destruct (left =? 0); [reflexivity|]. destruct (rd_read r _) as [[d e] r1].
  destruct e as [[]|]; [| |apply IH]; destruct (left - blen d =? 0); reflexivity.
Qed.

Lemma discard_spec p r x r' : wf_reader r -> discard p r = (x, r') ->
  took p r x r' (fun _ => tt) [].
Proof.
  intros Hw. unfold discard. rewrite discard_loop_pull.
  destruct (pull _ _ _ _ _ _ _) as [[u out] r1] eqn:E. intros H. injection H as <- <-.
  eapply pull_spec with (I := fun _ _ => True) (g := []) in E;
    [|auto|auto|unfold discard_buf; lia|exact Hw|lia|exact I].
  destruct E as (d & e & _ & G & En).
  apply (pull_took _ _ _ _ _ _ (fun out => match out with PFuel => OutOfFuel | PDone => Ok tt | PShort y => eclass y end) _ _ G En);
    [reflexivity|]. intros y Hy _. apply short_class_eclass, Hy.
Qed.

Definition flat (s : cstate) : dstate := {| rest := rden (rd s); last := clast s |}.

(* the decoder's own reader is never a LimitedReader (ReadByte is not defined on one) *)
Definition scannable (r : reader) : Prop := match ls r with LLim _ :: _ => False | _ => True end.

Definition wf_c (s : cstate) : Prop := wf_reader (rd s) /\ scannable (rd s).
Definition cshape (s s' : cstate) : Prop := same_shape (rd s) (rd s').

Lemma shape_scannable r r' : same_shape r r' -> scannable r -> scannable r'.
Proof.
  unfold same_shape, scannable. intros (_ & (K & _) & _) H.
  destruct (ls r) as [|[? ? ?|?] ?], (ls r') as [|[? ? ?|?] ?]; try discriminate; auto.
Qed.

Lemma shape_no_layers r r' : same_shape r r' -> ls r = [] -> ls r' = [].
Proof. intros (_ & (K & _) & _) E. rewrite E in K. destruct (ls r'); [reflexivity|discriminate]. Qed.

Lemma cshape_refl s : cshape s s.
Proof. apply same_shape_refl. Qed.
Lemma cshape_trans a b c : cshape a b -> cshape b c -> cshape a c.
Proof. apply same_shape_trans. Qed.

Definition strip {A} (fr : dres (A * dstate)) : dres A :=
  match fr with Ok (a, _) => Ok a | ErrEOF => ErrEOF | Err => Err | OutOfFuel => OutOfFuel end.

Record sim_post {A} (s : cstate) (x : dres A) (s' : cstate) (fr : dres (A * dstate)) : Prop := {
  sp_ok : forall a, x = Ok a -> exists st', fr = Ok (a, st') /\ flat s' = st' /\ wf_c s' /\ cshape s s';
  sp_eof : b_term (bs (rd s)) = EOF -> x = strip fr;
  sp_fuel : x = OutOfFuel -> fr = OutOfFuel;
  sp_eofres : x = ErrEOF -> fr = ErrEOF }.

Definition sim {A} (m : M A) (f : dstate -> dres (A * dstate)) : Prop :=
  forall s x s', wf_c s -> m s = (x, s') -> sim_post s x s' (f (flat s)).

(* what sim_post says, outcome by outcome: an I/O error of the transport is the one outcome that the flat
   decoder, which sees only the bytes, does not have *)
Lemma sim_post_iff {A} s (x : dres A) s' fr : sim_post s x s' fr <->
  match x with
  | Ok a => fr = Ok (a, flat s') /\ wf_c s' /\ cshape s s'
  | ErrEOF => fr = ErrEOF
  | Err => b_term (bs (rd s)) = EOF -> fr = Err
  | OutOfFuel => fr = OutOfFuel
  end.
Proof.
  split.
  - intros [O F U V]. destruct x as [a| | |]; auto.
    + destruct (O a eq_refl) as (st' & -> & <- & H). auto.
    + intros Ht. specialize (F Ht). destruct fr as [[]| | |]; (discriminate || reflexivity).
  - intros H. destruct x as [a| | |]; split; try discriminate; try (intros; subst fr; reflexivity).
    + intros a0 E. injection E as <-. destruct H as (-> & H). eauto.
    + destruct H as (-> & _). reflexivity.
    + intros Ht. rewrite (H Ht). reflexivity.
Qed.

Lemma sim_ext {A} (m : M A) f g : (forall st, f st = g st) -> sim m f -> sim m g.
Proof. intros E H s x s' Hw Hm. rewrite <- E. apply H; assumption. Qed.

Lemma sim_post_pure {A} s (a : A) s' fr : wf_c s -> rd s' = rd s -> fr = Ok (a, flat s') -> sim_post s (Ok a) s' fr.
Proof.
  intros Hw E ->. apply sim_post_iff. unfold wf_c, cshape. rewrite E.
  split; [reflexivity|]. split; [exact Hw|apply same_shape_refl].
Qed.

Lemma sim_post_from {A} s s1 (x : dres A) s' fr : cshape s s1 -> sim_post s1 x s' fr -> sim_post s x s' fr.
Proof.
  intros Sh H. apply sim_post_iff. apply sim_post_iff in H. destruct x as [a| | |]; try exact H.
  - destruct H as (E & Hw & Sh'). split; [exact E|]. split; [exact Hw|]. eapply cshape_trans; eassumption.
  - intros Ht. apply H. destruct Sh as (T & _). congruence.
Qed.

Lemma sim_ret {A} (a : A) : sim (mret a) (fun st => Ok (a, st)).
Proof. intros s x s' Hw H. unfold mret in H. injection H as <- <-. apply sim_post_pure; [exact Hw|reflexivity..]. Qed.

Lemma sim_charge n : sim (charge n) (fun st => Ok (tt, st)).
Proof. intros s x s' Hw H. unfold charge in H. injection H as <- <-. apply sim_post_pure; [exact Hw|reflexivity..]. Qed.

Lemma sim_set_last t : sim (c_set_last t) (fun st => Ok (tt, {| rest := rest st; last := t |})).
Proof. intros s x s' Hw H. unfold c_set_last in H. injection H as <- <-. apply sim_post_pure; [exact Hw|reflexivity..]. Qed.

Lemma sim_fail_err {A} : sim (@mfail A Err) (fun _ => Err).
Proof. intros s x s' Hw H. unfold mfail in H. injection H as <- <-. apply sim_post_iff. reflexivity. Qed.

(* the flat code binds with a pattern: [let* (a, st') := f1 st in f2 a st']; [P]: what is known of a value that
   the first step has returned *)
Lemma sim_bind_pat_P {A B} (P : A -> Prop) (m1 : M A) (m2 : A -> M B) f1 (f2 : A -> dstate -> dres (B * dstate)) :
  sim m1 f1 -> (forall st a st', f1 st = Ok (a, st') -> P a) -> (forall a, P a -> sim (m2 a) (f2 a)) ->
  sim (mbind m1 m2) (fun st => let* (a, st') := f1 st in f2 a st').
Proof.
  intros H1 HP H2 s x s' Hw H. unfold mbind in H. destruct (m1 s) as [x1 s1] eqn:E1.
  apply H1, sim_post_iff in E1; [|exact Hw].
  destruct x1 as [a| | |].
  - destruct E1 as (E1 & Hw1 & Sh1). rewrite E1. apply (sim_post_from _ s1); [exact Sh1|].
    exact (H2 a (HP _ _ _ E1) _ _ _ Hw1 H).
  - injection H as <- <-. apply sim_post_iff. rewrite E1. reflexivity.
  - injection H as <- <-. apply sim_post_iff. intros Ht. rewrite (E1 Ht). reflexivity.
  - injection H as <- <-. apply sim_post_iff. rewrite E1. reflexivity.
Qed.

Lemma sim_bind_pat {A B} (m1 : M A) (m2 : A -> M B) f1 (f2 : A -> dstate -> dres (B * dstate)) :
  sim m1 f1 -> (forall a, sim (m2 a) (f2 a)) ->
  sim (mbind m1 m2) (fun st => let* (a, st') := f1 st in f2 a st').
Proof. intros H1 H2. apply (sim_bind_pat_P (fun _ => True)); auto. Qed.

(* flat operations that only return the next state *)
Definition lift0 (g : dstate -> dres dstate) : dstate -> dres (unit * dstate) :=
  fun st => let* st' := g st in Ok (tt, st').

Lemma sim_bind0 {B} (m1 : M unit) (m2 : M B) g (f2 : dstate -> dres (B * dstate)) :
  sim m1 (lift0 g) -> sim m2 f2 ->
  sim (mbind m1 (fun _ => m2)) (fun st => let* st' := g st in f2 st').
Proof.
  intros H1 H2. eapply sim_ext; [|apply (sim_bind_pat m1 (fun _ => m2) (lift0 g) (fun _ => f2) H1 (fun _ => H2))].
  intros st. unfold lift0. destruct (g st); reflexivity.
Qed.

Lemma sim_charge_then {B} n (m : M B) f : sim m f -> sim (let^ _ := charge n in m) f.
Proof. intros H. exact (sim_bind_pat _ _ _ _ (sim_charge n) (fun _ => H)). Qed.

Lemma sim_charge_fail {A} n : sim (let^ _ := charge n in @mfail A Err) (fun _ => Err).
Proof. apply sim_charge_then. apply sim_fail_err. Qed.

Lemma flat_with_rd s r a : flat {| rd := r; clast := clast s; alloc := a |} = {| rest := rden r; last := clast s |}.
Proof. reflexivity. Qed.

Lemma wf_c_step s r' a : wf_c s -> wf_reader r' -> same_shape (rd s) r' ->
  wf_c {| rd := r'; clast := clast s; alloc := a |}.
Proof. intros [_ Hs] Hw Sh. split; [exact Hw|]. eapply shape_scannable; eassumption. Qed.

Lemma read_n_flat k st : (k <= length (rest st))%nat ->
  read_n k st = Ok (firstn k (rest st), {| rest := skipn k (rest st); last := last st |}).
Proof. intros H. unfold read_n. destruct (Nat.leb_spec k (length (rest st))); [reflexivity|lia]. Qed.

(* what [short_class] is for: a short read is simulated by the flat readers' failure on what was available *)
Lemma sim_post_short {A} s (x : dres A) s' avail :
  short_class x avail (b_term (bs (rd s))) -> sim_post s x s' (match avail with [] => ErrEOF | _ :: _ => Err end).
Proof.
  intros ([-> | ->] & Hc2 & Hc3); apply sim_post_iff.
  - rewrite (Hc2 eq_refl). reflexivity.
  - intros Ht. specialize (Hc3 Ht). destruct avail; [discriminate|reflexivity].
Qed.

(* an operation that takes [n] bytes is simulated by a flat one that splits [n] bytes off its input, or fails as
   the flat readers do on what is available *)
Lemma sim_of_took {X} n s (x : dres X) r' v avail al (f : dstate -> dres (X * dstate)) :
  wf_c s -> took n (rd s) x r' v avail ->
  (forall d tl l, blen d = n -> f {| rest := d ++ tl; last := l |} = Ok (v d, {| rest := tl; last := l |})) ->
  (blen (rden (rd s)) < n -> f (flat s) = match avail with [] => ErrEOF | _ :: _ => Err end) ->
  sim_post s x {| rd := r'; clast := clast s; alloc := al |} (f (flat s)).
Proof.
  intros Hw (W & Sh & d & D & [[Hn ->]|(Hlt & Hd & Hc)]) Hok Hshort.
  - apply sim_post_iff. unfold flat. rewrite D.
    split; [apply Hok, Hn|]. split; [apply wf_c_step; assumption|exact Sh].
  - rewrite Hshort by (rewrite D, Hd, app_nil_r; exact Hlt). apply sim_post_short, Hc.
Qed.

Lemma sim_read_nN n : sim (c_read_n n) (read_nN n).
Proof.
  intros s x s' Hw H. unfold c_read_n in H. destruct (readfull n (rd s)) as [x0 r'] eqn:Er. injection H as <- <-.
  apply (sim_of_took n _ _ _ _ _ _ _ Hw (readfull_spec _ _ _ _ (proj1 Hw) Er)); [intros d tl l; apply read_nN_app|].
  intros Hlt. unfold read_nN, flat; cbn [rest]. destruct (N.leb_spec n (blen (rden (rd s)))); [lia|reflexivity].
Qed.

Lemma read_nN_of_nat k st : read_nN (N.of_nat k) st = read_n k st.
Proof.
  unfold read_nN, read_n. rewrite Nat2N.id.
  destruct (N.leb_spec (N.of_nat k) (blen (rest st))), (Nat.leb_spec k (length (rest st))); try reflexivity; unfold blen in *; lia.
Qed.

Lemma sim_read_n k : sim (c_read_n (N.of_nat k)) (read_n k).
Proof. eapply sim_ext; [|apply sim_read_nN]. intros st. apply read_nN_of_nat. Qed.

Lemma sim_copy l : sim (c_copy l) (copy_nN l).
Proof.
  intros s x s' Hw H. unfold c_copy in H. destruct (copy_buf l (rd s)) as [[x0 r'] al] eqn:Er. injection H as <- <-.
  apply (sim_of_took l _ _ _ _ _ _ _ Hw (copy_buf_spec _ _ _ _ _ (proj1 Hw) Er)); [intros d tl la; apply copy_nN_app|].
  intros Hlt. unfold copy_nN, flat; cbn [rest]. destruct (N.leb_spec l (blen (rden (rd s)))); [lia|reflexivity].
Qed.

(* the skip path's io.CopyN(ioutil.Discard, ..) *)
Definition flat_discard (p : N) (st : dstate) : dres (unit * dstate) :=
  if N.leb p (blen (rest st)) then Ok (tt, {| rest := dropN p (rest st); last := last st |}) else ErrEOF.

Lemma sim_discard p : sim (c_discard p) (flat_discard p).
Proof.
  intros s x s' Hw H. unfold c_discard in H. destruct (discard p (rd s)) as [x0 r'] eqn:Er. injection H as <- <-.
  apply (sim_of_took p _ _ _ _ _ _ _ Hw (discard_spec _ _ _ _ (proj1 Hw) Er)); unfold flat_discard; cbn [rest last].
  - intros d tl l <-. rewrite dropN_app, blen_app. destruct (N.leb_spec (blen d) (blen d + blen tl)); [reflexivity|lia].
  - intros Hlt. unfold flat; cbn [rest]. destruct (N.leb_spec p (blen (rden (rd s)))); [lia|reflexivity].
Qed.

Lemma readbyte_any_spec r x r' : wf_reader r -> scannable r -> readbyte r = (x, r') -> rb_post r x r'.
Proof.
  intros Hw Hsc H. destruct (ls r) as [|ly l] eqn:El.
  - destruct (readbyte_base_spec _ _ _ El H) as (L' & T' & S' & Hres).
    apply Build_rb_post.
    + destruct Hw as [_ Hsf]. split; [rewrite L'; exact I|rewrite S'; exact Hsf].
    + unfold same_shape. rewrite L', El, S'. auto.
    + destruct (rden r); [|exact Hres]. destruct Hres as [-> Hn].
      unfold short_class. auto.
  - apply readbyte_spec; try assumption.
    + rewrite El. discriminate.
    + intros n l0 E. unfold scannable in Hsc. rewrite E in Hsc. exact Hsc.
Qed.

(* ReadByte is one more operation that takes its bytes or fails on an exhausted reader *)
Lemma rb_took r x r' : rb_post r x r' ->
  took 1 r x r' (fun b => match b with y :: _ => y | [] => x00 end) [].
Proof.
  intros [W S R]. split; [exact W|]. split; [exact S|]. destruct (rden r) as [|y q].
  - destruct R as [Hc ->]. exists []. split; [reflexivity|]. right. rewrite blen_nil. split; [lia|auto].
  - destruct R as [-> ->]. exists [y]. split; [reflexivity|]. left. split; reflexivity.
Qed.

Lemma sim_read_byte : sim c_read_byte (fun st => let* (b, st') := read_n 1 st in
                                            match b with [y] => Ok (y, st') | _ => Err end).
Proof.
  intros s x s' Hw H. unfold c_read_byte in H. destruct (readbyte (rd s)) as [x0 r'] eqn:Er.
  injection H as <- <-. destruct (readbyte_any_spec _ _ _ (proj1 Hw) (proj2 Hw) Er) as [W Sh Hres].
  unfold flat.
  destruct (rden (rd s)) as [|y q].
  - apply (sim_post_short _ _ _ []), Hres.
  - destruct Hres as [-> Hd]. apply sim_post_iff. unfold with_rd, flat. cbn [rd]. rewrite Hd.
    split; [reflexivity|]. split; [apply wf_c_step; assumption|exact Sh].
Qed.

Lemma sim_read_num k : sim (c_read_num (N.of_nat k)) (read_num k).
Proof.
  unfold c_read_num, read_num. apply sim_bind_pat; [apply sim_read_n|]. intros b. apply sim_ret.
Qed.

Lemma unbe_single y : unbe [y] 0 = b2n y.
Proof. cbn [unbe]. lia. Qed.

Lemma sim_read_type : sim c_read_type (read_num 1).
Proof.
  unfold c_read_type.
  eapply sim_ext; [|apply (sim_bind_pat c_read_byte (fun x => mret (b2n x)) _ (fun y st' => Ok (b2n y, st')) sim_read_byte)].
  - intros st. unfold read_num, read_n.
    destruct (Nat.leb_spec 1 (length (rest st))) as [Hle|Hgt].
    + destruct (rest st) as [|y q]; [cbn in Hle; lia|]. change (firstn 1 (y :: q)) with [y]. cbn [bind]. rewrite unbe_single. reflexivity.
    + destruct (rest st); reflexivity.
  - intros y. apply sim_ret.
Qed.

Lemma sim_iread_tag : sim c_iread_tag iread_tag.
Proof. apply (sim_read_num 3). Qed.

Lemma sim_read_tag : sim c_read_tag read_tag.
Proof.
  intros s x s' Hw H. unfold c_read_tag in H. unfold read_tag. cbn [flat last].
  destruct (negb (clast s =? 0)); [|apply (sim_iread_tag _ _ _ Hw H)].
  injection H as <- <-. apply sim_post_pure; [exact Hw|reflexivity..].
Qed.

Lemma sim_peek_tag : sim c_peek_tag peek_tag.
Proof.
  intros s x s' Hw H. unfold c_peek_tag in H. unfold peek_tag. cbn [flat last].
  destruct (negb (clast s =? 0)).
  - injection H as <- <-. apply sim_post_pure; [exact Hw|reflexivity..].
  - refine (sim_bind_pat _ _ _ _ sim_iread_tag _ _ _ _ Hw H).
    intros t. exact (sim_bind_pat _ _ _ _ (sim_set_last t) (fun _ => sim_ret t)).
Qed.

Lemma sim_expect_tag t : sim (c_expect_tag t) (lift0 (expect_tag t)).
Proof.
  unfold c_expect_tag.
  eapply sim_ext; [|apply (sim_bind_pat c_read_tag _ read_tag
     (fun t' st' => if negb (t =? t') && negb (t =? ANY_TAG) then Err else Ok (tt, st')) sim_read_tag)].
  - intros st. unfold lift0, expect_tag. destruct (read_tag st) as [[t' st']| | |]; cbn [bind]; try reflexivity.
    destruct (negb (t =? t') && negb (t =? ANY_TAG)); reflexivity.
  - intros t'. destruct (negb (t =? t') && negb (t =? ANY_TAG)); [apply sim_charge_fail|apply sim_ret].
Qed.

Lemma sim_expect_numlike (m : M N) k v : sim m (read_num k) ->
  sim (let^ x := m in if x =? v then mret tt else (let^ _ := charge K_ERR in mfail Err)) (lift0 (expect_num k v)).
Proof.
  intros Hm.
  eapply sim_ext; [|apply (sim_bind_pat m _ (read_num k) (fun x st' => if x =? v then Ok (tt, st') else Err) Hm)].
  - intros st. unfold lift0, expect_num. destruct (read_num k st) as [[x st']| | |]; cbn [bind]; try reflexivity.
    destruct (x =? v); reflexivity.
  - intros x. destruct (x =? v); [apply sim_ret|apply sim_charge_fail].
Qed.

Lemma sim_expect_type v : sim (c_expect_type v) (lift0 (expect_num 1 v)).
Proof. apply sim_expect_numlike. apply sim_read_type. Qed.

Lemma sim_expect_len v : sim (c_expect_len v) (lift0 (expect_num 4 v)).
Proof. apply sim_expect_numlike. apply (sim_read_num 4). Qed.

Lemma sim_pad l : sim (if pad8 l =? 0 then mret [] else c_read_n (pad8 l)) (read_nN (pad8 l)).
Proof.
  destruct (N.eqb_spec (pad8 l) 0) as [E|N0]; [|apply sim_read_nN].
  rewrite E. eapply sim_ext; [|apply (sim_ret (A:=bytes) [])].
  intros [r la]. unfold read_nN. cbn [rest]. destruct (N.leb_spec 0 (blen r)); [reflexivity|lia].
Qed.

Lemma sim_fixed l (m : bytes -> M (val * N)) (f : bytes -> dstate -> dres (val * N * dstate)) :
  (forall b, sim (m b) (f b)) ->
  sim (let^ _ := c_expect_len l in let^ b := c_read_n 8 in m b)
      (fun s2 => let* s3 := expect_num 4 l s2 in let* (b, s4) := read_n 8 s3 in f b s4).
Proof. intros H. apply sim_bind0; [apply sim_expect_len|]. apply sim_bind_pat; [apply (sim_read_n 8)|exact H]. Qed.

Lemma sim_boxed {A} n (a : A) : sim (let^ _ := charge n in mret a) (fun st => Ok (a, st)).
Proof. apply sim_charge_then, sim_ret. Qed.

Lemma sim_dec_prim k tag : sim (c_dec_prim k tag) (dec_prim k tag).
Proof.
  unfold c_dec_prim, dec_prim.
  apply sim_bind0; [apply sim_expect_tag|].
  apply sim_bind0; [apply sim_expect_type|].
  destruct k; try (apply sim_fixed; intros b; apply sim_boxed).
  - (* bool *) apply sim_fixed. intros b. destruct (all_zero (firstn 7 b)); [|apply sim_charge_fail].
    destruct (skipn 7 b) as [|y [|? ?]]; try apply sim_charge_fail.
    destruct (Byte.eqb y x01); [apply sim_ret|].
    destruct (Byte.eqb y x00); [apply sim_ret|apply sim_charge_fail].
  - (* bytes *) apply sim_bind_pat; [apply (sim_read_num 4)|]. intros l.
    apply sim_bind_pat; [apply sim_copy|]. intros b.
    apply sim_bind_pat; [apply sim_pad|]. intros p. apply sim_boxed.
  - (* string *) apply sim_bind_pat; [apply (sim_read_num 4)|]. intros l.
    apply sim_bind_pat; [apply sim_copy|]. intros b.
    apply sim_bind_pat; [apply sim_pad|]. intros p. apply sim_boxed.
Qed.

Lemma sim_dec_skip tag : sim (c_dec_skip tag) (dec_skip tag).
Proof.
  unfold c_dec_skip.
  eapply sim_ext; [|apply (sim_bind0 (c_expect_tag tag) _ (expect_tag tag)
     (fun s1 => let* (_, s2) := read_num 1 s1 in let* (l, s3) := read_num 4 s2 in
                let* (_, s4) := flat_discard (padded l) s3 in Ok (8 + padded l, s4)) (sim_expect_tag tag))].
  - intros st. unfold dec_skip. destruct (expect_tag tag st) as [s1| | |]; cbn [bind]; try reflexivity.
    unfold read_num at 1. destruct (read_n 1 s1) as [[b s2]| | |]; cbn [bind]; try reflexivity.
    destruct (read_num 4 s2) as [[l s3]| | |]; cbn [bind]; try reflexivity.
    unfold flat_discard. destruct (N.leb (padded l) (blen (rest s3))); reflexivity.
  - apply sim_bind_pat; [apply sim_read_type|]. intros ty.
    apply sim_bind_pat; [apply (sim_read_num 4)|]. intros l.
    apply sim_bind_pat; [apply sim_discard|]. intros u. apply sim_ret.
Qed.

Lemma sim_wrapped {A} (m : M A) f : sim m f -> sim (c_wrapped m) (fun st => wrapped (f st)).
Proof.
  intros Hm s x s' Hw H. unfold c_wrapped in H. destruct (m s) as [x0 s0] eqn:E.
  apply Hm, sim_post_iff in E; [|exact Hw]. apply sim_post_iff.
  destruct x0 as [a| | |]; injection H as <- <-.
  - destruct E as (-> & E). auto.
  - rewrite E. reflexivity.
  - intros Ht. rewrite (E Ht). reflexivity.
  - rewrite E. reflexivity.
Qed.

Lemma sim_slice_loop (step : M (val * N)) (fstep : dstate -> dres (val * N * dstate)) tag skip explen :
  sim step fstep ->
  forall fuel actual nsum acc,
    sim (c_slice_loop fuel step tag skip explen actual nsum acc)
        (fun dd => slice_loop fuel fstep tag skip explen dd actual nsum acc).
Proof.
  intros Hs. induction fuel as [|f IH]; intros actual nsum acc.
  - cbn [c_slice_loop slice_loop]. intros s x s' Hw H. unfold mfail in H. injection H as <- <-.
    split; [discriminate|reflexivity|reflexivity|discriminate].
  - cbn [c_slice_loop slice_loop].
    apply sim_bind_pat; [apply sim_wrapped; exact Hs|]. intros [v nn].
    apply sim_charge_then.
    destruct (explen <=? (actual + nn) mod 2 ^ 32).
    + apply sim_ret.
    + apply sim_bind_pat; [apply sim_peek_tag|]. intros t.
      destruct (t =? tag).
      * apply IH.
      * apply sim_ret.
Qed.

Lemma nested_shape_inv l3 b3 len r' :
  same_shape {| ls := LBuf 4096 [] None :: LLim len :: l3; bs := b3 |} r' ->
  exists sz buf err n' l'',
    ls r' = LBuf sz buf err :: LLim n' :: l'' /\
    same_shape {| ls := l3; bs := b3 |} {| ls := l''; bs := bs r' |} /\
    dropN n' (den l'' (bs r')) = dropN len (den l3 b3).
Proof.
  unfold same_shape. cbn [ls bs map lkind lsize beyonds]. intros (T & (K1 & K2) & By & Sz).
  destruct (ls r') as [|[sz buf err|n0] [|[sz1 buf1 err1|n'] l'']]; try discriminate.
  exists sz, buf, err, n', l''. injection K1 as K1. injection K2 as _ K2. injection By as By1 By2.
  split; [reflexivity|]. auto.
Qed.

Lemma push_nested_wf len s : wf_c s -> wf_c (push_nested len s).
Proof.
  intros [[Hwl Hsf] _]. split; [split; [|exact Hsf]|exact I].
  split; [lia|]. split; [discriminate|exact Hwl].
Qed.

(* discarding the nested decoder, in whatever state [dd] its run has left it: the outer reader [pop_nested] is
   where the nested one's LimitedReader has got to - what the nested bufio.Reader still holds is lost, what lies
   beyond the limit has not been touched *)
Lemma pop_nested_spec len s dd : wf_c s -> cshape (push_nested len s) dd ->
  cshape s (pop_nested (clast s) dd) /\
  (wf_c dd -> wf_c (pop_nested (clast s) dd)) /\
  exists buf n', rden (rd dd) = buf ++ takeN n' (rden (rd (pop_nested (clast s) dd))) /\
                 dropN n' (rden (rd (pop_nested (clast s) dd))) = dropN len (rden (rd s)).
Proof.
  intros [_ Hsc] Shd. apply nested_shape_inv in Shd. destruct Shd as (sz & buf & err & n' & l'' & El & Sh & Hdrop).
  assert (Sh': cshape s (pop_nested (clast s) dd)).
  { unfold pop_nested. rewrite El. exact Sh. }
  split; [exact Sh'|]. unfold rden, pop_nested, wf_c, wf_reader. cbn [rd ls bs]. rewrite El. cbn [tl den wf_layers].
  split; [|eauto].
  intros [[Hwl Hsf] _]. split; [tauto|]. eapply shape_scannable; eassumption.
Qed.

(* what c_dec_value does with a structure once the header is read: a nested decoder on the next [len] bytes *)
Definition c_struct_body (ty : string) (fl : flist) (len : N) : M (val * N) :=
  fun s3 =>
    match c_dec_fields fl O len 0 0 (zeros_of fl) (push_nested len s3) with
    | (Ok (vs, actual, nsum), dd) =>
        let s4 := pop_nested (clast s3) dd in
        if actual =? len then (Ok (VStruct ty vs, 8 + nsum), s4)
        else (Err, {| rd := rd s4; clast := clast s4; alloc := alloc s4 + K_ERR |})
    | (ErrEOF, dd) => (ErrEOF, pop_nested (clast s3) dd)
    | (Err, dd) => (Err, pop_nested (clast s3) dd)
    | (OutOfFuel, dd) => (OutOfFuel, pop_nested (clast s3) dd)
    end.

Definition S_fl (fl : flist) : Prop := forall i explen actual nsum cur,
  sim (c_dec_fields fl i explen actual nsum cur) (fun dd => dec_fields fl i explen dd actual nsum cur).

Lemma sim_struct_body ty fl len : len < 2 ^ 32 -> S_fl fl ->
  sim (c_struct_body ty fl len)
      (fun s3 => let dd := {| rest := takeN len (rest s3); last := 0 |} in
                 let* (vs, actual, nsum, _) := dec_fields fl O len dd 0 0 (zeros_of fl) in
                 if actual =? len
                 then Ok (VStruct ty vs, 8 + nsum, {| rest := dropN len (rest s3); last := last s3 |})
                 else Err).
Proof.
  intros Hlen IH s3 x s' Hw H. unfold c_struct_body in H. cbv zeta.
  destruct (c_dec_fields fl O len 0 0 (zeros_of fl) (push_nested len s3)) as [xf dd] eqn:Ef.
  apply IH, sim_post_iff in Ef; [|apply push_nested_wf, Hw].
  change (flat (push_nested len s3)) with {| rest := takeN len (rest (flat s3)); last := 0 |} in Ef.
  destruct xf as [[[vs actual] nsum]| | |].
  - destruct Ef as (Efr & Hwd & Shd). rewrite Efr. cbn [bind].
    destruct (N.eqb_spec actual len) as [->|Na]; injection H as <- <-; apply sim_post_iff; [|reflexivity].
    (* accepted: nothing is left in the nested reader, so its LimitedReader is used up or its source is *)
    destruct (region_exact _ _ _ _ _ _ _ (proj1 (proj2 decoder_sound) fl) Hlen Efr) as (Est%logical_nil & _).
    destruct (pop_nested_spec _ _ _ Hw Shd) as (Sh4 & Hw4 & buf & n' & Hden & Hdrop).
    apply (f_equal rest) in Est. cbn [flat rest] in Est. rewrite Est in Hden.
    symmetry in Hden. apply app_eq_nil in Hden. destruct Hden as [_ Htk].
    rewrite (dropN_of_takeN_nil _ _ Htk) in Hdrop.
    split; [|auto]. unfold flat. rewrite Hdrop. reflexivity.
  - injection H as <- <-. apply sim_post_iff. rewrite Ef. reflexivity.
  - injection H as <- <-. apply sim_post_iff. intros Ht. rewrite (Ef Ht). reflexivity.
  - injection H as <- <-. apply sim_post_iff. rewrite Ef. reflexivity.
Qed.

(* io.EOF from a peek: nothing was there.  The flat decoder goes on from its input with no look-ahead, [c_dec_fields]
   from the state the peek has left (the look-ahead it resets was none already) *)
Lemma peek_eof_state dd dd1 : wf_c dd -> c_peek_tag dd = (ErrEOF, dd1) ->
  flat dd1 = {| rest := rest (flat dd); last := 0 |} /\ wf_c dd1 /\ cshape dd dd1 /\
  {| rd := rd dd1; clast := 0; alloc := alloc dd1 |} = dd1.
Proof.
  intros Hw H. unfold c_peek_tag in H. destruct (N.eqb_spec (clast dd) 0) as [Ez|]; [|discriminate].
  unfold c_iread_tag, c_read_num, mbind in H.
  destruct (c_read_n 3 dd) as [x0 d0] eqn:E0.
  assert (x0 = ErrEOF /\ d0 = dd1) as [-> ->].
  { destruct x0; cbv [mret c_set_last] in H; try discriminate. injection H as <-. auto. }
  unfold c_read_n in E0. destruct (readfull 3 (rd dd)) as [x1 r'] eqn:Er. injection E0 as -> <-.
  destruct Hw as [Hwr Hsc]. destruct (readfull_spec _ _ _ _ Hwr Er) as (W & Sh & d & D & [[_ E]|(_ & Hn & Hshort)]);
    [discriminate|].
  (* the read was short: nothing is left ([Hn]), and since the error is io.EOF nothing was there either ([Hav]) *)
  destruct Hshort as (_ & Hav & _). specialize (Hav eq_refl).
  split; [|split; [|split]].
  - unfold flat; cbn [rd clast rest]. rewrite Hn, Hav, Ez. reflexivity.
  - apply wf_c_step; [split|..]; assumption.
  - exact Sh.
  - cbn [rd alloc]. rewrite Ez. reflexivity.
Qed.

(* decodeValue at the position of field [a], on reader objects ([dec_item] is its flat twin) *)
Definition c_dec_item (a : fattr) (s : sch) (cur : vlist) : M (val * N) :=
  if fa_skip a then (let^ n := c_dec_skip (fa_tag a) in mret (VNil, n)) else c_dec_value s a cur.

Lemma sim_dec_item a s cur :
  sim (c_dec_value s a cur) (fun st => dec_value s a st cur) -> sim (c_dec_item a s cur) (dec_item a s cur).
Proof.
  intros Hs. unfold c_dec_item, dec_item. destruct (fa_skip a); [|exact Hs].
  apply sim_bind_pat; [apply sim_dec_skip|]. intros n. apply sim_ret.
Qed.

Lemma sim_fields_cons a s r :
  (forall a0 cur, sim (c_dec_value s a0 cur) (fun st => dec_value s a0 st cur)) -> S_fl r -> S_fl (FCons a s r).
Proof.
  intros Hs Hr i explen actual nsum cur dd x dd' Hw H.
  cbn [c_dec_fields] in H. cbn [dec_fields].
  fold (c_dec_item a s cur) in H. fold (dec_item a s cur).
  pose proof (sim_dec_item a s cur (Hs a cur)) as Hitem.
  destruct (c_peek_tag dd) as [xp dd1] eqn:Ep.
  pose proof (proj1 (sim_post_iff _ _ _ _) (sim_peek_tag _ _ _ Hw Ep)) as Pk.
  destruct xp as [t| | |].
  - destruct Pk as (-> & Hw1 & Sh1). apply (sim_post_from _ dd1); [exact Sh1|].
    destruct (negb (fa_req a) && negb (t =? fa_tag a) && negb (fa_tag a =? ANY_TAG)); [exact (Hr _ _ _ _ _ _ _ _ Hw1 H)|].
    destruct (fa_slice a).
    + refine (sim_bind_pat _ _ _ _ (sim_slice_loop _ _ _ _ _ Hitem _ _ _ _) _ _ _ _ Hw1 H). intros [[es a'] n']. apply Hr.
    + refine (sim_bind_pat _ _ _ _ (sim_wrapped _ _ Hitem) _ _ _ _ Hw1 H). intros [v nn]. apply Hr.
  - (* io.EOF while peeking: the field is absent *)
    rewrite Pk. destruct (fa_req a).
    + injection H as <- <-. apply sim_post_iff. reflexivity.
    + destruct (peek_eof_state _ _ Hw Ep) as (Ef & Hw1 & Sh1 & E). rewrite E in H.
      apply (sim_post_from _ dd1); [exact Sh1|]. rewrite <- Ef. exact (Hr _ _ _ _ _ _ _ _ Hw1 H).
  - injection H as <- <-. apply sim_post_iff. intros Ht. rewrite (Pk Ht). reflexivity.
  - injection H as <- <-. apply sim_post_iff. rewrite Pk. reflexivity.
Qed.

Definition S_sch (s : sch) : Prop := forall a cur, sim (c_dec_value s a cur) (fun st => dec_value s a st cur).
Definition S_cs (cs : dcases) : Prop := forall key a, sim (c_dec_cases cs key a) (fun st => dec_cases cs key a st).

Theorem decoder_on_readers : (forall s, S_sch s) /\ (forall fl, S_fl fl) /\ (forall cs, S_cs cs).
Proof.
  apply sch_mutind.
  - (* SPrim *) intros k a cur. apply sim_dec_prim.
  - (* SStruct *) intros ty fl IH a cur. cbn [c_dec_value dec_value].
    apply sim_charge_then.
    apply sim_bind0; [apply sim_expect_tag|].
    apply sim_bind0; [apply sim_expect_type|].
    apply (sim_bind_pat_P (fun len => len < 2 ^ 32)); [apply (sim_read_num 4)| |].
    + intros st len st' E. apply read_num_inv in E. destruct E as (_ & _ & B). exact B.
    + intros len Hlen. apply sim_struct_body; assumption.
  - (* SDyn *) intros holder ki cs IH a cur. apply IH.
  - (* FNil *) intros i explen actual nsum cur. apply sim_ret.
  - (* FCons *) intros a s IHs r IHr. apply sim_fields_cons; assumption.
  - (* DNil *) intros key a. apply sim_charge_fail.
  - (* DCase *) intros k s IHs r IHr key a. cbn [c_dec_cases dec_cases].
    destruct (key_matches k key); [apply IHs|apply IHr].
Qed.

Definition transport_ok (b : base) : Prop := stall_free (b_sizes b).

Lemma new_decoder_wf scanner b : transport_ok b -> wf_c (new_decoder scanner b).
Proof.
  intros H. unfold new_decoder. destruct scanner; unfold wf_c, wf_reader, scannable; cbn [rd ls bs wf_layers]; [auto|].
  split; [|exact I]. split; [|exact H]. split; [lia|]. split; [intros e He; discriminate|exact I].
Qed.

Lemma new_decoder_flat scanner b : flat (new_decoder scanner b) = {| rest := b_data b; last := 0 |}.
Proof. destruct scanner; reflexivity. Qed.

Lemma new_decoder_bufio_wf size b : 0 < size -> transport_ok b -> wf_c (new_decoder_bufio size b).
Proof.
  intros Hs H. unfold new_decoder_bufio, wf_c, wf_reader, scannable; cbn [rd ls bs wf_layers].
  split; [|exact I]. split; [|exact H]. split; [exact Hs|]. split; [intros e He; discriminate|exact I].
Qed.

(* one Decode call on a decoder in any well-formed state *)
Theorem decode_on_readers ty tag fl s x s' : wf_c s -> c_dec_top ty tag fl s = (x, s') ->
  sim_post s x s' (dec_top ty tag fl (flat s)).
Proof. intros Hw H. exact (proj1 decoder_on_readers (SStruct ty fl) (top_attr tag) VNone _ _ _ Hw H). Qed.

Lemma decode_fresh scanner b ty tag fl x s' : c_dec_top ty tag fl (new_decoder scanner b) = (x, s') -> transport_ok b ->
  sim_post (new_decoder scanner b) x s' (dec_top ty tag fl {| rest := b_data b; last := 0 |}).
Proof. intros H Hok. rewrite <- (new_decoder_flat scanner b). exact (decode_on_readers _ _ _ _ _ _ (new_decoder_wf _ _ Hok) H). Qed.

(* successive Decode calls on one Decoder: the stream theorem *)
Definition strip_stream (r : list val * stream_end) : list val * stream_end := r.

Lemma stream_on_readers ty tag fl : forall fuel s vs e s',
  wf_c s -> b_term (bs (rd s)) = EOF ->
  c_dec_stream fuel ty tag fl s = (vs, e, s') ->
  dec_stream fuel ty tag fl (flat s) = (vs, e).
Proof.
  induction fuel as [|f IH]; intros s vs e s' Hw Ht H; cbn [c_dec_stream dec_stream] in *.
  - injection H as <- <- <-. reflexivity.
  - destruct (c_dec_top ty tag fl s) as [x s1] eqn:E.
    apply decode_on_readers, sim_post_iff in E; [|exact Hw].
    destruct x as [[v n]| | |]; [|injection H as <- <- <-; rewrite E by exact Ht; reflexivity..].
    destruct E as (-> & Hw1 & Sh1).
    destruct (c_dec_stream f ty tag fl s1) as [[vs1 e1] s2] eqn:E2. injection H as <- <- <-.
    rewrite (IH _ _ _ _ Hw1 (eq_trans (proj1 Sh1) Ht) E2). reflexivity.
Qed.
