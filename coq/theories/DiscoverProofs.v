(* DiscoverProofs.v - C20: on values, the handler returns exactly the supported subset of the offer; on the
   heap of backing arrays, its reply is fresh and every array that existed is unchanged (invariant [extends]). *)
From Coq Require Import List ZArith Bool Lia.
Require BytesProofs.
Require Import Discover.
Import ListNotations.

Lemma pv_eqb_eq a b : pv_eqb a b = true <-> a = b.
Proof.
  destruct a as [a1 a2], b as [b1 b2]. unfold pv_eqb; cbn [fst snd]. rewrite andb_true_iff, !Z.eqb_eq.
  split; [intros [-> ->]; reflexivity|intros H; injection H; auto].
Qed.

Lemma first_match_eq o sup : first_match o sup = if existsb (pv_eqb o) sup then Some o else None.
Proof.
  induction sup as [|x r IH]; cbn; [reflexivity|]. destruct (pv_eqb o x) eqn:E; [|exact IH].
  apply pv_eqb_eq in E. subst x. reflexivity.
Qed.

Lemma existsb_pv_eqb o sup : existsb (pv_eqb o) sup = true <-> In o sup.
Proof.
  rewrite existsb_exists. split.
  - intros (x & Hx & ->%pv_eqb_eq). exact Hx.
  - intros H. exists o. split; [exact H|apply pv_eqb_eq; reflexivity].
Qed.

Theorem discover_spec_empty sup : discover_spec sup [] = sup.
Proof. reflexivity. Qed.

Theorem discover_spec_filter sup offer : offer <> [] ->
  discover_spec sup offer = filter (fun o => existsb (pv_eqb o) sup) offer.
Proof.
  intros Hne. unfold discover_spec. destruct offer as [|o0 r0]; [contradiction|].
  generalize (o0 :: r0) as offer. induction offer as [|o r IH]; cbn [flat_map filter]; [reflexivity|].
  rewrite first_match_eq. destruct (existsb (pv_eqb o) sup); cbn; congruence.
Qed.

Theorem discover_spec_sound sup offer v : offer <> [] -> (In v (discover_spec sup offer) <-> In v offer /\ In v sup).
Proof. intros Hne. rewrite discover_spec_filter, filter_In, existsb_pv_eqb by assumption. reflexivity. Qed.

(* h' extends h: every array that existed is unchanged *)
Definition extends (h h' : heap) : Prop := exists ext, h' = h ++ ext.

Lemma extends_refl h : extends h h. Proof. exists []. rewrite app_nil_r. reflexivity. Qed.
Lemma extends_trans a b c : extends a b -> extends b c -> extends a c.
Proof. intros [x ->] [y ->]. exists (x ++ y). rewrite app_assoc. reflexivity. Qed.

Lemma extends_arr h h' a : extends h h' -> (a < length h)%nat -> arr h' a = arr h a.
Proof. intros [ext ->] Hlt. unfold arr. rewrite app_nth1 by assumption. reflexivity. Qed.

(* a slice that is nil or lives in an array allocated at or after [base] with all of its capacity inside it *)
Definition fresh_from (base : nat) (h : heap) (s : slice) : Prop :=
  (s_cap s = 0%nat /\ s_len s = 0%nat) \/ ((base <= s_arr s < length h)%nat /\ s_off s = 0%nat /\ s_cap s = length (arr h (s_arr s)) /\ (s_len s <= s_cap s)%nat).

Lemma set_nth_length {A} i (x : A) l : length (set_nth i x l) = length l.
Proof. revert i; induction l as [|y r IH]; intros i; destruct i; cbn; auto. Qed.

Lemma nth_set_nth_same {A} i (x d : A) l : (i < length l)%nat -> nth i (set_nth i x l) d = x.
Proof. revert i; induction l as [|y r IH]; intros i H; cbn in *; [lia|]. destruct i; [reflexivity|apply IH; lia]. Qed.

Lemma nth_set_nth_other {A} i j (x d : A) l : i <> j -> nth i (set_nth j x l) d = nth i l d.
Proof.
  revert i j; induction l as [|y r IH]; intros i j H; [destruct j; reflexivity|].
  destruct j, i; cbn; try reflexivity; try congruence. apply IH. congruence.
Qed.

Lemma firstn_set_nth {A} n i (x : A) l : (n <= i)%nat -> firstn n (set_nth i x l) = firstn n l.
Proof.
  revert i l; induction n as [|m IH]; intros i l H; [reflexivity|].
  destruct l as [|y r]; [destruct i; reflexivity|]. destruct i; [lia|]. cbn. f_equal. apply IH. lia.
Qed.

Lemma firstn_snoc_set {A} n (x : A) l : (n < length l)%nat -> firstn (S n) (set_nth n x l) = firstn n l ++ [x].
Proof.
  revert l; induction n as [|m IH]; intros l H; destruct l as [|y r]; cbn in *; try lia; [reflexivity|].
  f_equal. apply IH. lia.
Qed.

(* writing into an array that h0 does not have *)
Lemma extends_set_nth h0 h a (y : list pv) : extends h0 h -> (length h0 <= a)%nat -> extends h0 (set_nth a y h).
Proof.
  intros [ext ->] Hle. exists (skipn (length h0) (set_nth a y (h0 ++ ext))).
  rewrite <- (firstn_skipn (length h0) (set_nth a y (h0 ++ ext))) at 1.
  rewrite firstn_set_nth by assumption. rewrite BytesProofs.firstn_exact by reflexivity. reflexivity.
Qed.

Lemma extends_length h h' : extends h h' -> (length h <= length h')%nat.
Proof. intros [ext ->]. rewrite app_length. lia. Qed.

Lemma fresh_elems_length base h s : fresh_from base h s -> length (elems h s) = s_len s.
Proof.
  unfold elems. rewrite firstn_length, skipn_length. intros [[_ ->]|(_ & -> & -> & Hl)]; lia.
Qed.

(* one append to a slice that lives (if anywhere) outside h0: h0 stays as it is, the slice stays outside, and
   gets the element *)
Lemma append1_fresh h0 h s x :
  extends h0 h -> fresh_from (length h0) h s ->
  let '(h', s') := append1 h s x in
  extends h0 h' /\ fresh_from (length h0) h' s' /\ elems h' s' = elems h s ++ [x].
Proof.
  intros He Hf. pose proof (fresh_elems_length _ _ _ Hf) as Hel. pose proof (extends_length _ _ He) as Hh.
  unfold append1. destruct (Nat.ltb_spec (s_len s) (s_cap s)) as [Hlt|Hge].
  - (* in place *)
    destruct Hf as [[Hz Hz']|[Ha [Ho [Hc Hl]]]]; [lia|].
    split; [apply extends_set_nth; [exact He|lia]|]. unfold fresh_from, elems, arr. cbn [s_arr s_off s_len s_cap].
    rewrite set_nth_length, nth_set_nth_same, set_nth_length, Ho by lia. fold (arr h (s_arr s)).
    split; [right; lia|]. cbn [skipn]. apply firstn_snoc_set. lia.
  - (* a new array *)
    split; [apply (extends_trans _ h); [exact He|exists [elems h s ++ [x] ++ repeat default_pv (grow (s_len s) - S (s_len s))]; reflexivity]|].
    set (a := elems h s ++ [x] ++ repeat default_pv (grow (s_len s) - S (s_len s))).
    assert (Ea : arr (h ++ [a]) (length h) = a) by (unfold arr; rewrite app_nth2, Nat.sub_diag by lia; reflexivity).
    split.
    + right. cbn [s_arr s_off s_len s_cap]. rewrite Ea, app_length. subst a.
      rewrite !app_length, repeat_length. unfold grow. cbn [length]. lia.
    + unfold elems at 1. cbn [s_arr s_off s_len]. rewrite Ea. subst a.
      rewrite app_assoc. apply BytesProofs.firstn_exact. rewrite app_length. cbn. lia.
Qed.

Lemma append_all_fresh h0 xs : forall h s,
  extends h0 h -> fresh_from (length h0) h s ->
  let '(h', s') := append_all h s xs in
  extends h0 h' /\ fresh_from (length h0) h' s' /\ elems h' s' = elems h s ++ xs.
Proof.
  induction xs as [|x r IH]; intros h s He Hf; cbn [append_all].
  - rewrite app_nil_r. auto.
  - pose proof (append1_fresh h0 h s x He Hf) as H1. destruct (append1 h s x) as [h1 s1]. destruct H1 as (He1 & Hf1 & E1).
    specialize (IH h1 s1 He1 Hf1). destruct (append_all h1 s1 r) as [h2 s2]. destruct IH as (He2 & Hf2 & E2).
    rewrite E2, E1, <- app_assoc. auto.
Qed.

(* the loop over the offer appends the matches one by one *)
Lemma match_loop_append_all sup offer : forall h s,
  match_loop h s offer sup =
  append_all h s (flat_map (fun o => match first_match o sup with Some v => [v] | None => [] end) offer).
Proof.
  induction offer as [|o r IH]; intros h s; cbn [match_loop flat_map]; [reflexivity|].
  destruct (first_match o sup) as [v|]; cbn [app append_all]; [destruct (append1 h s v)|]; apply IH.
Qed.

(* both branches of handleDiscoverVersions append the specified list to a nil slice *)
Lemma handle_discover_eq h sup offer :
  handle_discover h sup offer = append_all h nil_slice (discover_spec (elems h sup) offer).
Proof. destruct offer; [reflexivity|apply match_loop_append_all]. Qed.

Lemma fresh_nil base h : fresh_from base h nil_slice.
Proof. left. split; reflexivity. Qed.

Lemma copy_fresh h xs :
  let '(h', s) := append_all h nil_slice xs in extends h h' /\ fresh_from (length h) h' s /\ elems h' s = xs.
Proof. exact (append_all_fresh h xs h nil_slice (extends_refl h) (fresh_nil _ _)). Qed.

Lemma handle_discover_fresh h sup offer :
  let '(h', res) := handle_discover h sup offer in
  extends h h' /\ fresh_from (length h) h' res /\ elems h' res = discover_spec (elems h sup) offer.
Proof. rewrite handle_discover_eq. apply copy_fresh. Qed.

(* C20: the reply holds exactly discover_spec, lives (if non-empty) in an array allocated by this call,
   and every array that existed before the call - the configuration's, DefaultSupportedVersions', any
   other - is unchanged *)
Theorem handle_discover_correct h sup offer :
  let '(h', res) := handle_discover h sup offer in
  elems h' res = discover_spec (elems h sup) offer /\
  fresh_from (length h) h' res /\
  (forall a, (a < length h)%nat -> arr h' a = arr h a).
Proof.
  pose proof (handle_discover_fresh h sup offer) as H. destruct (handle_discover h sup offer) as [h' res].
  destruct H as (He & Hf & E). auto using extends_arr.
Qed.

(* the reply's backing array is not the configuration's *)
Corollary reply_not_aliased h sup offer :
  (s_arr sup < length h)%nat ->
  let '(h', res) := handle_discover h sup offer in s_cap res = 0%nat \/ s_arr res <> s_arr sup.
Proof.
  intros Hs. pose proof (handle_discover_correct h sup offer) as H.
  destruct (handle_discover h sup offer) as [h' res]. destruct H as [_ [[[Hz _]|[Ha _]] _]]; [left; assumption|right; lia].
Qed.

(* Serve's defaulting: an empty configuration becomes a fresh copy of the default list *)
Theorem serve_defaults_correct h configured dflt :
  let '(h', s) := serve_defaults h configured dflt in
  (s_len configured = 0%nat -> elems h' s = elems h dflt /\ fresh_from (length h) h' s) /\
  (s_len configured <> 0%nat -> h' = h /\ s = configured) /\
  (forall a, (a < length h)%nat -> arr h' a = arr h a).
Proof.
  unfold serve_defaults. destruct (Nat.eqb_spec (s_len configured) 0) as [E|E].
  - pose proof (copy_fresh h (elems h dflt)) as H.
    destruct (append_all h nil_slice (elems h dflt)) as [h' s]. destruct H as (He & Hf & El).
    split; [auto|]. split; [contradiction|]. auto using extends_arr.
  - split; [contradiction|]. auto.
Qed.

(* the session model's Discover Versions computes discover_spec *)
Require Import Session.
Lemma session_discover_spec sup offer : Session.discover sup offer = discover_spec sup offer.
Proof.
  unfold Session.discover, discover_spec. destruct offer as [|o r]; [reflexivity|].
  apply flat_map_ext. intros a.
  induction sup as [|v s IH]; cbn [find first_match]; [reflexivity|].
  change (Session.pair_eqb a v) with (pv_eqb a v). destruct (pv_eqb a v); [reflexivity|exact IH].
Qed.

(* a slice stays what it is while the heap only grows *)
Lemma elems_extends h h' s : extends h h' -> (s_len s = 0 \/ s_arr s < length h)%nat -> elems h' s = elems h s.
Proof. intros He [Hl|Ha]; unfold elems; [rewrite Hl|rewrite (extends_arr _ _ _ He Ha)]; reflexivity. Qed.

Lemma fresh_extends base base' h h' s :
  fresh_from base h s -> extends h h' -> (base' <= base)%nat ->
  fresh_from base' h' s /\ elems h' s = elems h s.
Proof.
  intros Hf He Hb. pose proof (extends_length _ _ He) as Hl. destruct Hf as [Z|((Hlo & Hhi) & Rest)].
  - split; [left; exact Z|apply elems_extends; tauto].
  - split; [right; rewrite (extends_arr _ _ _ He Hhi); split; [lia|exact Rest]|apply elems_extends; auto].
Qed.

(* replies that are not nil lie in arrays with ascending ids *)
Definition apart (si sj : slice) : Prop := (s_cap si = 0 \/ s_cap sj = 0 \/ s_arr si < s_arr sj)%nat.

Lemma discover_batch_correct offers : forall h sup,
  (s_arr sup < length h)%nat ->
  let '(h', ss) := discover_batch h sup offers in
  map (elems h') ss = map (discover_spec (elems h sup)) offers /\
  extends h h' /\ Forall (fresh_from (length h) h') ss /\ ForallOrdPairs apart ss.
Proof.
  induction offers as [|o r IH]; intros h sup Hs; cbn [discover_batch].
  - auto using extends_refl, FOP_nil.
  - pose proof (handle_discover_fresh h sup o) as H1. destruct (handle_discover h sup o) as [h1 s1].
    destruct H1 as (X1 & F1 & E1). pose proof (extends_length _ _ X1) as L1.
    specialize (IH h1 sup ltac:(lia)). destruct (discover_batch h1 sup r) as [h2 ss]. destruct IH as (E2 & X2 & F2 & P2).
    destruct (fresh_extends _ (length h) _ _ _ F1 X2 (le_n _)) as [F1' E1'].
    split; [|split; [|split]].
    + (* the first reply and the configuration keep their elements while the heap grows *)
      cbn [map]. rewrite E1', E1, E2, (elems_extends h h1 sup) by auto. reflexivity.
    + exact (extends_trans _ _ _ X1 X2).
    + constructor; [exact F1'|]. eapply Forall_impl; [|exact F2]. intros s F. apply (fresh_extends _ _ _ _ _ F (extends_refl h2) L1).
    + (* apart: the first reply's array lies below length h1 (F1), the later replies' at or above it (F2) *)
      constructor; [|exact P2]. eapply Forall_impl; [|exact F2]. intros s [[Z _]|((Hlo & _) & _)]; [right; left; exact Z|].
      destruct F1 as [[Z _]|((_ & Hhi) & _)]; [left; exact Z|right; right; lia].
Qed.

Lemma FOP_nth {A} (R : A -> A -> Prop) l : ForallOrdPairs R l ->
  forall i j x y, (i < j)%nat -> nth_error l i = Some x -> nth_error l j = Some y -> R x y.
Proof.
  induction 1 as [|a l Ha _ IH]; intros i j x y Hij Hi Hj; [destruct i; discriminate|].
  destruct j as [|j]; [lia|]. destruct i as [|i]; cbn [nth_error] in Hi, Hj.
  - injection Hi as <-. rewrite Forall_forall in Ha. apply Ha. eapply nth_error_In; eassumption.
  - apply (IH i j); [lia|assumption..].
Qed.

(* distinct non-empty replies of one batch live in distinct arrays *)
Lemma discover_batch_disjoint offers h sup :
  (s_arr sup < length h)%nat ->
  let '(h', ss) := discover_batch h sup offers in
  forall i j si sj, nth_error ss i = Some si -> nth_error ss j = Some sj -> i <> j ->
    s_cap si = 0%nat \/ s_cap sj = 0%nat \/ s_arr si <> s_arr sj.
Proof.
  intros Hs. pose proof (discover_batch_correct offers h sup Hs) as C. destruct (discover_batch h sup offers) as [h' ss].
  destruct C as (_ & _ & _ & P). intros i j si sj Hi Hj Hij. destruct (Nat.lt_gt_cases i j) as [[L|L] _]; [exact Hij|..].
  - destruct (FOP_nth _ _ P i j si sj L Hi Hj) as [Z|[Z|Z]]; [left; exact Z|right; left; exact Z|right; right; lia].
  - destruct (FOP_nth _ _ P j i sj si L Hj Hi) as [Z|[Z|Z]]; [right; left; exact Z|left; exact Z|right; right; lia].
Qed.
