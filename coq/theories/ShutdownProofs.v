(* ShutdownProofs.v - C11 / C12: inductive invariants of the Serve / Shutdown / session interleaving
   semantics, for every schedule and any number of connections. *)
From Coq Require Import List ZArith Lia.
Require Import Shutdown.
Import ListNotations.
Open Scope Z_scope.

Fixpoint cnt (l : list sstate) : Z :=
  match l with [] => 0 | x :: r => (if active x then 1 else 0) + cnt r end.

Lemma cnt_nonneg l : 0 <= cnt l.
Proof. induction l as [|x r IH]; cbn; [lia|]. destruct (active x); lia. Qed.

Lemma cnt_app a b : cnt (a ++ b) = cnt a + cnt b.
Proof. induction a as [|x r IH]; cbn; [lia|]. rewrite IH. lia. Qed.

Lemma upd_length {A} i (x : A) l : length (upd i x l) = length l.
Proof. revert i; induction l as [|y r IH]; intros i; destruct i; cbn; auto. Qed.

Lemma nth_upd_same i x l : (i < length l)%nat -> nth i (upd i x l) SNone = x.
Proof. revert i; induction l as [|y r IH]; intros i H; cbn in *; [lia|]. destruct i; [reflexivity|apply IH; lia]. Qed.

Lemma nth_upd_other i j x l : i <> j -> nth i (upd j x l) SNone = nth i l SNone.
Proof.
  revert i j; induction l as [|y r IH]; intros i j H; [destruct j; reflexivity|].
  destruct j, i; try reflexivity; try congruence. apply IH. congruence.
Qed.

Lemma nth_upd i j x l : nth i (upd j x l) SNone = nth i l SNone \/ i = j /\ nth i (upd j x l) SNone = x.
Proof.
  revert i j; induction l as [|y r IH]; intros [|i] [|j]; cbn; auto.
  destruct (IH i j) as [E|[-> E]]; auto.
Qed.

Lemma nth_snoc_none i l : nth i (l ++ [SNone]) SNone = nth i l SNone.
Proof. revert i; induction l as [|y r IH]; intros [|i]; cbn; auto. destruct i; reflexivity. Qed.

Definition b2z (b : bool) : Z := if b then 1 else 0.

Lemma cnt_upd i x l : (i < length l)%nat ->
  cnt (upd i x l) = cnt l - b2z (active (nth i l SNone)) + b2z (active x).
Proof.
  revert i; induction l as [|y r IH]; intros i H; cbn in *; [lia|].
  destruct i; cbn.
  - unfold b2z. lia.
  - rewrite IH by lia. lia.
Qed.

Lemma nth_not_none_lt i l : nth i l SNone <> SNone -> (i < length l)%nat.
Proof.
  intros H. destruct (Nat.lt_ge_cases i (length l)) as [|Hge]; [assumption|].
  rewrite nth_overflow in H by assumption. congruence.
Qed.

Lemma cnt_zero_inactive l : cnt l = 0 -> forall c, active (nth c l SNone) = false.
Proof.
  induction l as [|x r IH]; intros H c; [destruct c; reflexivity|]. cbn in H.
  pose proof (cnt_nonneg r). destruct (active x) eqn:E; [lia|].
  destruct c; [exact E|apply IH; lia].
Qed.

Record Inv (s : st) : Prop := {
  i_wg : wg s = cnt (sess s);
  i_done : s_pc s <> SNotCalled -> done s = true;
  i_lis : lis_closed s = true -> done s = true;
  i_waiter : w_pc s <> WNotStarted -> done s = true /\ (s_pc s = SWaiting \/ exists r, s_pc s = SReturned r);
  i_woken : (w_pc s = WWoken \/ w_pc s = WSignalled) -> wg s = 0;
  i_ret_nil : s_pc s = SReturned RNil -> w_pc s = WSignalled;
  i_ret_ctx : s_pc s = SReturned RCtx -> ctx_expired s = true;
  i_ret_err : s_pc s <> SReturned RErr;
  i_acc : forall c, (a_pc s = AHasConn c \/ a_pc s = ASpawn c) -> (c < length (sess s))%nat;
  i_spawn : forall c, a_pc s = ASpawn c -> nth c (sess s) SNone = SRegistered;
  i_backlog : Forall (fun c => (c < length (sess s))%nat) (backlog s);
  i_serve : forall r, a_pc s = AReturned r -> r = RNil /\ done s = true
}.

Lemma inv_init : Inv init.
Proof.
  constructor; cbn; try tauto; try discriminate; try (intros; discriminate); try (intros [|]; discriminate).
  - intros c [H|H]; discriminate.
  - constructor.
Qed.

Ltac inv_fields H :=
  destruct H as [Hwg Hdone Hlis Hwaiter Hwoken Hnil Hctx Herr Hacc Hspawn Hback Hserve].

(* the clauses of Inv that hold of the new state as they stand in the context (unchanged, or said by the guard just
   decided), or that its new program counters make vacuous *)
Ltac frame := first [solve [auto] | solve [intros; discriminate] | solve [intros ? [?|?]; discriminate] | solve [intros [?|?]; discriminate]].

(* entry c of the session table becomes y, the counter follows *)
Lemma inv_upd s c x y w ans :
  Inv s -> nth c (sess s) SNone = x -> (c < length (sess s))%nat -> a_pc s <> ASpawn c ->
  (active y = true -> active x = true \/ w_pc s = WNotStarted) ->
  w = wg s - b2z (active x) + b2z (active y) ->
  Inv {| done := done s; lis_closed := lis_closed s; backlog := backlog s; sess := upd c y (sess s); wg := w;
         a_pc := a_pc s; s_pc := s_pc s; w_pc := w_pc s; ctx_expired := ctx_expired s; answered := ans |}.
Proof.
  intros HI <- Hlt Ha Hy ->. inv_fields HI. constructor; cbn; rewrite ?upd_length; try frame.
  - (* i_wg *) rewrite cnt_upd by assumption. lia.
  - (* i_woken: the counter is 0, so entry c was not active, and Hy forbids it to become active once the waiter has started *)
    intros H. specialize (Hwoken H).
    assert (Hx : active (nth c (sess s) SNone) = false) by (apply cnt_zero_inactive; lia).
    rewrite Hx in *. destruct (active y); [|lia].
    destruct (Hy eq_refl) as [E|E]; [discriminate|]. destruct H as [H|H]; congruence.
  - (* i_spawn: the entry about to be spawned is not c *) intros c0 H. rewrite nth_upd_other by congruence. auto.
Qed.

Lemma inv_set_a s a :
  Inv s ->
  match a with
  | AHasConn c => (c < length (sess s))%nat
  | ASpawn c => nth c (sess s) SNone = SRegistered
  | AReturned r => r = RNil /\ done s = true
  | _ => True
  end -> Inv (set_a s a).
Proof.
  intros HI Ha. inv_fields HI. constructor; cbn; try frame.
  - intros c [->| ->]; [exact Ha|]. apply nth_not_none_lt. congruence.
  - intros c ->. exact Ha.
  - intros r ->. exact Ha.
Qed.

(* Hs : step fixed s l = Some s', l a constructor: decide the guards of the step and drop the cases in which it is
   disabled; what is left is s' written out.  The guards are destructed in the hypotheses as well, so that what Inv
   says of a program counter is said of its value *)
Ltac step_cases Hs :=
  cbn [step] in Hs; unfold sget in Hs;
  repeat match type of Hs with
         | Some _ = Some _ => fail 1
         | context [match ?x with _ => _ end] =>
             lazymatch x with context [match _ with _ => _ end] => fail | _ => idtac end;   (* innermost first *)
             destruct x eqn:?; try discriminate; cbn [negb andb] in Hs
         end;
  injection Hs as <-.

Lemma step_inv s l s' : Inv s -> step true s l = Some s' -> Inv s'.
Proof.
  intros HI Hs. pose proof HI as HI'. inv_fields HI'. destruct l as [| | | | | |c|c|c|c| | | | | | | |].
  (* LReqStart, LReqEnd, LSessClose, LSessDone (labels 7 to 10 of [label]): a session that is neither new nor about to
     be spawned moves on *)
  7-10: step_cases Hs; eapply (inv_upd s c); try eassumption; cbn; (lia || auto);
        [apply nth_not_none_lt; congruence | intros E; apply Hspawn in E; congruence].
  - (* LServeStart *) step_cases Hs.
    + (* Shutdown signalled before *) constructor; cbn; try frame. (* i_serve *) intros r H; injection H as <-; auto.
    + apply inv_set_a; [exact HI|exact I].
  - (* LConnect *) step_cases Hs.
    constructor; cbn; rewrite ?app_length; cbn [length]; try frame.
    + (* i_wg *) rewrite cnt_app; cbn; lia.
    + (* i_acc *) intros c H; specialize (Hacc c H); lia.
    + (* i_spawn *) intros c H; rewrite nth_snoc_none; auto.
    + (* i_backlog *) apply Forall_app; split; [eapply Forall_impl; [|exact Hback]; cbn; lia|repeat constructor; lia].
  - (* LAcceptDequeue *) step_cases Hs.
    inversion Hback; subst.
    constructor; cbn; try frame. (* i_acc *) intros c0 [H|H]; [injection H as <-; assumption|discriminate].
  - (* LAcceptFail: the listener is closed, so Shutdown has been signalled *) step_cases Hs.
    apply inv_set_a; [exact HI|]. rewrite (Hlis eq_refl). auto.
  - (* LRegister: the accepted connection has an entry (i_acc), and that entry is empty *) step_cases Hs.
    + (* late: closed, Serve returns nil *)
      apply inv_set_a; [|auto]. eapply (inv_upd s); try eassumption; cbn; (congruence || lia || auto).
    + (* registered: the waiter has not been started, since done is still false *)
      apply inv_set_a; [|apply nth_upd_same; auto].
      eapply (inv_upd s); try eassumption; cbn; (congruence || lia || auto).
      intros _. right. destruct (w_pc s) eqn:Hw; [reflexivity|..]; destruct (Hwaiter ltac:(discriminate)); congruence.
  - (* LSpawn: the entry is registered (i_spawn), so the counter stays *) step_cases Hs.
    eapply (inv_upd (set_a s AAccepting)); try (cbn; (discriminate || lia || auto)).
    apply inv_set_a; [exact HI|exact I].
  - (* LShCloseDone *) step_cases Hs.
    constructor; cbn; try frame.
    + (* i_waiter: the waiter has not been started *) intros H; destruct (Hwaiter H) as [_ [Hx|[r Hx]]]; congruence.
    + (* i_serve *) intros r H; destruct (Hserve r H); auto.
  - (* LShCloseListener *) step_cases Hs.
    assert (Hd: done s = true) by (apply Hdone; discriminate).
    constructor; cbn; try frame. (* i_waiter *) intros H; destruct (Hwaiter H) as [_ [Hx|[r Hx]]]; congruence.
  - (* LShStartWaiter *) step_cases Hs.
    assert (Hd: done s = true) by (apply Hdone; discriminate).
    constructor; frame.
  - (* LShSelectCtx *) step_cases Hs.
    assert (Hd: done s = true) by (apply Hdone; discriminate).
    constructor; cbn; try frame. (* i_waiter *) eauto.
  - (* LShSelectDone *) step_cases Hs.
    assert (Hd: done s = true) by (apply Hdone; discriminate).
    constructor; cbn; try frame. (* i_waiter *) eauto.
  - (* LWaitReturn *) step_cases Hs.
    constructor; try frame.
    + (* i_waiter *) intros _; apply Hwaiter; discriminate.
    + (* i_woken *) intros _; apply Z.eqb_eq; assumption.
    + (* i_ret_nil *) intros H; specialize (Hnil H); congruence.
  - (* LWaitSignal *) step_cases Hs.
    constructor; try frame. (* i_waiter *) intros _; apply Hwaiter; discriminate.
  - (* LCtxExpire *) step_cases Hs.
    constructor; frame.
Qed.

Lemma run_inv ls : forall s, Inv s -> Inv (run true ls s).
Proof.
  induction ls as [|l r IH]; intros s H; [assumption|].
  apply IH. destruct (step true s l) as [s'|] eqn:E; [eapply step_inv; eauto|assumption].
Qed.

Theorem reachable_inv s : reachable true s -> Inv s.
Proof. intros [ls ->]. apply run_inv. apply inv_init. Qed.

(* Shutdown returns nil only when no started session is still registered, running or closing: every
   session that was started has ended, and (SEnded is entered only from SClosed) its connection is closed.
   The statement is about EVERY reachable state, so it also holds at every later moment: nothing
   starts after Shutdown has returned nil *)
Theorem shutdown_waits s : reachable true s -> s_pc s = SReturned RNil -> forall c, active (sget s c) = false.
Proof.
  intros Hr Hp c. apply reachable_inv in Hr. inv_fields Hr.
  unfold sget. apply cnt_zero_inactive. rewrite <- Hwg. apply Hwoken. right. apply Hnil. assumption.
Qed.

(* how one step changes the session table *)
Lemma step_sess fixed s l s' : step fixed s l = Some s' ->
  sess s' = sess s \/ sess s' = sess s ++ [SNone] \/
  exists c x, sess s' = upd c x (sess s) /\ (x = SEnded -> nth c (sess s) SNone = SClosed).
Proof.
  intros Hs. destruct l; step_cases Hs.
  (* the table is not touched, or (LConnect) an entry is appended, *)
  all: try (left; reflexivity); try (right; left; reflexivity).
  (* or an entry is written: not SEnded, or by LSessDone, whose guard says that it was SClosed *)
  all: right; right; eexists _, _; split; [reflexivity|first [discriminate|intros _; assumption]].
Qed.

(* a session ends only after its connection was closed: SEnded is entered only from SClosed *)
Theorem ended_was_closed fixed s c l s' :
  step fixed s l = Some s' -> sget s' c = SEnded -> sget s c <> SEnded -> sget s c = SClosed.
Proof.
  intros Hs He Hne. unfold sget in *. destruct (step_sess _ _ _ _ Hs) as [E|[E|[c0 [x [E Hx]]]]]; rewrite E in He.
  - congruence.
  - rewrite nth_snoc_none in He. congruence.
  - destruct (nth_upd c c0 x (sess s)) as [E'|[-> E']]; rewrite E' in He; [congruence|auto].
Qed.

(* the context's error is returned only if the context has ended; nil only after the waiter signalled *)
Theorem shutdown_ctx s : reachable true s ->
  (s_pc s = SReturned RCtx -> ctx_expired s = true) /\ (s_pc s = SReturned RNil -> w_pc s = WSignalled) /\ s_pc s <> SReturned RErr.
Proof. intros Hr. apply reachable_inv in Hr. inv_fields Hr. auto. Qed.

(* Serve's only result in this protocol is nil, and only once Shutdown has been signalled; a connection
   accepted too late is closed, never served *)
Theorem serve_returns_nil s r : reachable true s -> a_pc s = AReturned r -> r = RNil /\ done s = true.
Proof. intros Hr. apply reachable_inv in Hr. inv_fields Hr. auto. Qed.

Theorem late_connection_closed s c s' :
  reachable true s -> a_pc s = AHasConn c -> done s = true -> step true s LRegister = Some s' ->
  a_pc s' = AReturned RNil /\ sget s' c = SLateClosed.
Proof.
  intros Hr Ha Hd Hs. step_cases Hs. (* with done s = true only the late branch is left *)
  injection Ha as ->. split; [reflexivity|].
  apply nth_upd_same, (i_acc s (reachable_inv s Hr)). auto.
Qed.

(* no step of the Shutdown caller, the waiter or the context touches any session: in-flight requests are never aborted *)
Definition shutdown_label (l : label) : bool :=
  match l with
  | LShCloseDone | LShCloseListener | LShStartWaiter | LShSelectCtx | LShSelectDone | LWaitReturn | LWaitSignal | LCtxExpire => true
  | _ => false
  end.

Theorem shutdown_never_aborts fixed s l s' : shutdown_label l = true -> step fixed s l = Some s' -> sess s' = sess s.
Proof.
  intros Hl Hs. destruct l; try discriminate; step_cases Hs; reflexivity.
Qed.

(* ... nor the responses written so far *)
Theorem shutdown_keeps_answers fixed s l s' : shutdown_label l = true -> step fixed s l = Some s' -> answered s' = answered s.
Proof.
  intros Hl Hs. destruct l; try discriminate; step_cases Hs; reflexivity.
Qed.

(* a request in flight: whatever any thread does, the session stays in flight until its own handler returns, and
   that step - the only one that leaves the state - writes the response on the session's connection *)
Theorem inflight_completes s l s' c :
  Inv s -> step true s l = Some s' -> sget s c = SInFlight ->
  (sget s' c = SInFlight /\ answered s' = answered s)
  \/ (exists c', l = LReqEnd c' /\ c' <> c /\ sget s' c = SInFlight)
  \/ (l = LReqEnd c /\ sget s' c = SRunning /\ answered s' = answered s ++ [c]).
Proof.
  intros HI Hs Hc. unfold sget in *.
  assert (Hlt: (c < length (sess s))%nat) by (apply nth_not_none_lt; congruence).
  destruct l as [| | | | | |c0|c0|c0|c0| | | | | | | |]; step_cases Hs; cbn.
  (* steps that leave the table alone, or move another session (one that is not in flight) *)
  all: try (left; split; [first [assumption|rewrite nth_upd_other by congruence; assumption]|reflexivity]).
  - (* LConnect *) left. split; [rewrite nth_snoc_none; assumption|reflexivity].
  - (* LSpawn: the session about to be spawned is registered, not in flight *)
    left. split; [|reflexivity]. rewrite nth_upd_other; [assumption|]. intros ->. rewrite (i_spawn s HI _) in Hc by eassumption. discriminate.
  - (* LReqEnd *)
    destruct (Nat.eq_dec c0 c) as [->|Hne].
    + right; right. split; [reflexivity|]. split; [apply nth_upd_same; assumption|reflexivity].
    + right; left. exists c0. split; [reflexivity|]. split; [assumption|]. rewrite nth_upd_other by congruence. assumption.
Qed.

(* once Shutdown has been signalled no session is registered any more *)
Theorem no_registration_after_done s s' : done s = true -> step true s LRegister = Some s' -> wg s' = wg s.
Proof.
  intros Hd Hs. step_cases Hs. (* only the late branch is left *) reflexivity.
Qed.

(* C12: the WaitGroup is never incremented once the waiter may be in Wait (sync.WaitGroup's rule that
   an Add from zero must happen before Wait) *)
Theorem waitgroup_protocol s s' : reachable true s -> step true s LRegister = Some s' -> wg s' = wg s + 1 -> w_pc s = WNotStarted.
Proof.
  intros Hr Hs Hw. apply reachable_inv in Hr. inv_fields Hr.
  destruct (w_pc s); [reflexivity| | |].
  all: destruct (Hwaiter ltac:(discriminate)) as [Hd _];
       rewrite (no_registration_after_done s s' Hd Hs) in Hw; lia.
Qed.

(* the counter never goes negative (Done without Add) *)
Theorem waitgroup_nonnegative s : reachable true s -> 0 <= wg s.
Proof. intros Hr. apply reachable_inv in Hr. inv_fields Hr. rewrite Hwg. apply cnt_nonneg. Qed.

(* the pinned tree ([step false]): the schedule on which Shutdown returned nil with a session still to start *)
Definition pinned_schedule : list label :=
  [LServeStart; LConnect; LAcceptDequeue; LShCloseDone; LShCloseListener; LShStartWaiter; LWaitReturn; LWaitSignal;
   LShSelectDone; LRegister; LSpawn].

Theorem pinned_refuted :
  let s := run false pinned_schedule init in s_pc s = SReturned RNil /\ sget s 0 = SRunning.
Proof. vm_compute. split; reflexivity. Qed.

(* the same schedule on the fixed tree: the late connection is closed and Serve returns nil *)
Theorem fixed_same_schedule :
  let s := run true pinned_schedule init in
  s_pc s = SReturned RNil /\ sget s 0 = SLateClosed /\ a_pc s = AReturned RNil.
Proof. vm_compute. repeat split; reflexivity. Qed.
