(* DenoteProofs.v - C04: the decoder model accepts exactly what the specification of Denote.v
   accepts, returns the value the specification assigns, and consumes the byte count it assigns.
   No condition on the schema is needed.

   The decoder's position is described by its *logical* input - the peeked tag, if any, put back in
   front of the unread bytes.  A wire tag 000000 that is peeked is lost (the decoder uses 0 for
   "nothing peeked").  Soundness keeps accounts ([went]): bytes gone from the logical input = bytes
   entered in [actual] + 3 per lost tag; the limit reader holds exactly the declared length and the
   structure is accepted only if actual = declared length, so nothing is lost on an accepting run.
   Both directions go through the same account of how the matcher takes one field ([takes]). *)
From Coq Require Import List ZArith Bool Lia Strings.Byte.
Require Import Bytes BytesProofs Schema Codec CodecProofs Denote.
Import ListNotations.
Open Scope N_scope.

Definition item_wf (it : item) : Prop :=
  i_tag it < 2 ^ 24 /\ i_typ it < 256 /\ i_len it < 2 ^ 32 /\
  blen (i_val it) = i_len it /\ blen (i_pad it) = pad8 (i_len it).

Definition flat_raw (its : list item) : bytes := concat (map raw its).

Lemma flat_raw_cons it its : flat_raw (it :: its) = raw it ++ flat_raw its.
Proof. reflexivity. Qed.

Lemma flat_raw_app a b : flat_raw (a ++ b) = flat_raw a ++ flat_raw b.
Proof. unfold flat_raw. rewrite map_app, concat_app. reflexivity. Qed.

Lemma raw_blen it : item_wf it -> blen (raw it) = i_size it.
Proof.
  intros (_ & _ & _ & Hv & Hp). unfold raw, i_size, padded. rewrite !blen_app, header_blen. lia.
Qed.

Lemma blen_flat_cons it its : item_wf it -> blen (flat_raw (it :: its)) = i_size it + blen (flat_raw its).
Proof. intros Hw. rewrite flat_raw_cons, blen_app, raw_blen by assumption. reflexivity. Qed.

Lemma i_size_ge it : 8 <= i_size it.
Proof. unfold i_size. lia. Qed.

Lemma i_size_mod8 it : i_size it mod 8 = 0.
Proof. unfold i_size. apply add_mod8; [reflexivity|apply padded_mod8]. Qed.

Lemma flat_raw_mod8 its : Forall item_wf its -> blen (flat_raw its) mod 8 = 0.
Proof.
  induction 1 as [|it its Hw _ IH]; [reflexivity|].
  rewrite blen_flat_cons by assumption. apply add_mod8; [apply i_size_mod8|exact IH].
Qed.

Lemma flat_raw_len its : Forall item_wf its -> (8 * length its <= length (flat_raw its))%nat.
Proof.
  induction 1 as [|it its Hw _ IH]; [cbn; lia|].
  rewrite flat_raw_cons, app_length. cbn [length].
  pose proof (raw_blen it Hw). pose proof (i_size_ge it). unfold blen in *. lia.
Qed.

Lemma flat_raw_nil its : Forall item_wf its -> flat_raw its = [] -> its = [].
Proof. intros Hw H. apply flat_raw_len in Hw. rewrite H in Hw. destruct its; [reflexivity|cbn in Hw; lia]. Qed.

(* splitting a list at a length taken from the wire *)
Lemma split_at (n : nat) (l : bytes) : (n <= length l)%nat -> l = firstn n l ++ skipn n l /\ length (firstn n l) = n.
Proof. intros H. rewrite firstn_skipn, firstn_length. split; [reflexivity|lia]. Qed.

Lemma num_front k (l : bytes) : (k <= length l)%nat -> exists v r, l = be k v ++ r /\ v < 256 ^ N.of_nat k.
Proof.
  intros H. destruct (split_at k l H) as [E L]. exists (unbe (firstn k l) 0), (skipn k l).
  pose proof (be_unbe (firstn k l) 0) as B. pose proof (unbe0_bound (firstn k l)) as U. rewrite L in B, U.
  rewrite B. auto.
Qed.

Lemma split_front n m (l : bytes) : n + m <= blen l ->
  exists v p, l = v ++ p ++ dropN (n + m) l /\ blen v = n /\ blen p = m.
Proof.
  intros H. exists (takeN n (takeN (n + m) l)), (dropN n (takeN (n + m) l)).
  rewrite app_assoc, !takeN_dropN. split; [reflexivity|].
  pose proof (f_equal blen (takeN_dropN n (takeN (n + m) l))) as E. rewrite blen_app, !takeN_blen in *. lia.
Qed.

Lemma header_front bs : 8 <= blen bs -> exists t y l r, bs = header t y l ++ r /\ t < 2 ^ 24 /\ y < 256 /\ l < 2 ^ 32.
Proof.
  unfold blen. intros H.
  destruct (num_front 3 bs) as (t & r1 & -> & Ht); [lia|]. rewrite app_length, be_length in H.
  destruct (num_front 1 r1) as (y & r2 & -> & Hy); [lia|]. rewrite app_length, be_length in H.
  destruct (num_front 4 r2) as (l & r & -> & Hl); [lia|].
  exists t, y, l, r. unfold header. rewrite <- !app_assoc. auto.
Qed.

Lemma header_split tag typ len tl :
  tag < 2 ^ 24 -> typ < 256 -> len < 2 ^ 32 ->
  let bs := header tag typ len ++ tl in
  unbe (firstn 3 bs) 0 = tag /\ unbe (firstn 1 (skipn 3 bs)) 0 = typ /\
  unbe (firstn 4 (skipn 4 bs)) 0 = len /\ skipn 8 bs = tl.
Proof.
  intros Ht Hy Hl bs. unfold bs, header. rewrite <- !app_assoc. split; [|split; [|split]].
  - rewrite firstn_exact by apply be_length. apply unbe_be0. exact Ht.
  - rewrite skipn_exact, firstn_exact by apply be_length. apply unbe_be0. exact Hy.
  - rewrite (app_assoc (be 3 tag)), skipn_exact by (rewrite app_length, !be_length; reflexivity).
    rewrite firstn_exact by apply be_length. apply unbe_be0. exact Hl.
  - rewrite !app_assoc. apply skipn_exact. rewrite !app_length, !be_length. reflexivity.
Qed.

Lemma skipn_raw it tl : item_wf it -> skipn (N.to_nat (i_size it)) (raw it ++ tl) = tl.
Proof. intros Hw. apply skipn_exact. pose proof (raw_blen it Hw). unfold blen in *. lia. Qed.

Lemma head_item_raw it tl : item_wf it -> head_item (raw it ++ tl) = Some (it, tl).
Proof.
  intros Hw. pose proof (skipn_raw it tl Hw) as Hs. unfold head_item. rewrite blen_app, (raw_blen it Hw).
  destruct Hw as (Ht & Hy & Hl & Hv & Hp). unfold raw, i_size in *. rewrite <- !app_assoc in *.
  destruct (header_split (i_tag it) (i_typ it) (i_len it) (i_val it ++ i_pad it ++ tl) Ht Hy Hl) as (-> & -> & -> & ->).
  pose proof (header_blen (i_tag it) (i_typ it) (i_len it)) as Hh.
  rewrite Hs, (app_assoc (header _ _ _)), (skipn_exact (8 + _)) by (unfold blen in *; rewrite app_length; lia).
  destruct (N.ltb_spec (8 + padded (i_len it) + blen tl) 8) as [Hc|_]; [lia|].
  destruct (N.ltb_spec (8 + padded (i_len it) + blen tl) (8 + padded (i_len it))) as [Hc|_]; [lia|].
  rewrite !firstn_exact by (unfold blen in *; lia). destruct it; reflexivity.
Qed.

(* if the two length tests pass, the bytes begin with a header, a value and its padding, and on that form
   [head_item] has been computed above *)
Lemma head_item_inv bs it tl : head_item bs = Some (it, tl) -> item_wf it /\ bs = raw it ++ tl.
Proof.
  intros H. enough (exists it0 tl0, item_wf it0 /\ bs = raw it0 ++ tl0) as (it0 & tl0 & Hw & ->).
  { rewrite head_item_raw in H by assumption. injection H as <- <-. auto. }
  unfold head_item in H. destruct (N.ltb_spec (blen bs) 8) as [|H8]; [discriminate|].
  destruct (N.ltb_spec (blen bs) (8 + padded (unbe (firstn 4 (skipn 4 bs)) 0))) as [|Hp]; [discriminate|]. clear H.
  destruct (header_front bs H8) as (t & y & l & r & -> & Ht & Hy & Hl).
  rewrite (proj1 (proj2 (proj2 (header_split t y l r Ht Hy Hl)))), blen_app, header_blen in Hp.
  destruct (split_front l (pad8 l) r) as (v & p & Er & Lv & Lp); [unfold padded in Hp; lia|].
  exists {| i_tag := t; i_typ := y; i_len := l; i_val := v; i_pad := p |}, (dropN (l + pad8 l) r).
  split; [repeat split; assumption|]. unfold raw; cbn [i_tag i_typ i_len i_val i_pad]. rewrite <- !app_assoc, <- Er. reflexivity.
Qed.

(* the fuel counts items (and the empty rest) *)
Lemma parse_items_spec fuel : forall bs its,
  parse_items fuel bs = Some its <-> Forall item_wf its /\ bs = flat_raw its /\ (length its < fuel)%nat.
Proof.
  induction fuel as [|f IH]; intros bs its; [split; [discriminate|lia]|].
  cbn [parse_items]. split.
  - destruct bs as [|b bs'] eqn:Eb; [intros H; injection H as <-; auto with arith|]. rewrite <- Eb.
    destruct (head_item bs) as [[it tl]|] eqn:Eh; [|discriminate].
    destruct (parse_items f tl) as [r|] eqn:Er; [|discriminate]. intros H; injection H as <-.
    apply head_item_inv in Eh. destruct Eh as [Hw ->]. apply IH in Er. destruct Er as (Hr & -> & Hf).
    auto with arith.
  - intros (Hws & -> & Hf). destruct Hws as [|it r Hw Hr]; [reflexivity|].
    (* [head_item] finds [it], so the bytes are not the empty list *)
    pose proof (head_item_raw it (flat_raw r) Hw) as Eh. rewrite flat_raw_cons.
    destruct (raw it ++ flat_raw r); [discriminate Eh|]. rewrite Eh, (proj2 (IH _ r)); [reflexivity|].
    auto with arith.
Qed.

Lemma split_items_exact bs its : split_items bs = Some its <-> Forall item_wf its /\ bs = flat_raw its.
Proof.
  unfold split_items. rewrite parse_items_spec. split; [tauto|]. intros [Hws ->].
  pose proof (flat_raw_len its Hws). repeat split; [assumption|lia].
Qed.

Lemma split_items_raw its : Forall item_wf its -> split_items (flat_raw its) = Some its.
Proof. intros H. apply split_items_exact. auto. Qed.

Definition logical (s : dstate) : bytes := (if last s =? 0 then [] else be 3 (last s)) ++ rest s.
(* a remembered tag was read from three bytes ([be3_inj] asks for the bound) *)
Definition lastok (s : dstate) : Prop := last s < 2 ^ 24.

Lemma logical_fresh r : logical {| rest := r; last := 0 |} = r.
Proof. reflexivity. Qed.

Lemma lastok_zero s : last s = 0 -> lastok s.
Proof. unfold lastok. intros ->. reflexivity. Qed.

Lemma lastok_fresh r : lastok {| rest := r; last := 0 |}.
Proof. reflexivity. Qed.

Lemma logical_zero s : last s = 0 -> logical s = rest s.
Proof. unfold logical. intros ->. reflexivity. Qed.

Lemma logical_peeked s : last s <> 0 -> logical s = be 3 (last s) ++ rest s.
Proof. intros H. unfold logical. destruct (N.eqb_spec (last s) 0); [contradiction|reflexivity]. Qed.

Lemma logical_last s t x : lastok s -> t < 2 ^ 24 -> logical s = be 3 t ++ x -> last s <> 0 -> t = last s /\ x = rest s.
Proof.
  intros Hl Ht E Hnz. rewrite logical_peeked in E by assumption.
  apply be3_inj in E; [|assumption|assumption]. destruct E; auto.
Qed.

Lemma logical_nil dd : logical dd = [] <-> dd = {| rest := []; last := 0 |}.
Proof.
  split; [|intros ->; reflexivity].
  destruct dd as [r l]. unfold logical; cbn [rest last]. destruct (N.eqb_spec l 0) as [->|_].
  - cbn [app]. intros ->. reflexivity.
  - intros H. apply (f_equal (@length byte)) in H. rewrite app_length, be_length in H. cbn in H. lia.
Qed.

(* [read_tag] and [peek_tag] take a three-byte tag off the logical input; they differ in what is
   remembered afterwards (so a peeked 000000 is lost) *)
Lemma read_tag_spec s t s' : lastok s ->
  (read_tag s = Ok (t, s') <-> logical s = be 3 t ++ rest s' /\ last s' = 0 /\ t < 2 ^ 24).
Proof.
  intros Hl. unfold read_tag, iread_tag. destruct (N.eqb_spec (last s) 0) as [E|E]; cbn [negb].
  - rewrite read_num_spec, logical_zero, E by assumption. reflexivity.
  - destruct s' as [r' l']. cbn [rest last]. split.
    + intros H. injection H as <- <- <-. rewrite logical_peeked by assumption. auto.
    + intros (R & -> & Ht). destruct (logical_last s t r' Hl Ht R E) as [-> ->]. reflexivity.
Qed.

Lemma peek_tag_spec s t s' : lastok s ->
  (peek_tag s = Ok (t, s') <-> logical s = be 3 t ++ rest s' /\ last s' = t /\ t < 2 ^ 24).
Proof.
  intros Hl. rewrite peek_tag_read, bind_ok. destruct s' as [r' l']. cbn [rest last]. split.
  - intros ([t0 s0] & Hb & Hk). injection Hk as -> <- <-. apply read_tag_spec in Hb; tauto.
  - intros (R & -> & Ht). exists (t, {| rest := r'; last := 0 |}). rewrite read_tag_spec by assumption. auto.
Qed.

Lemma peek_tag_eof s : peek_tag s = ErrEOF -> s = {| rest := []; last := 0 |}.
Proof.
  destruct s as [r l]. unfold peek_tag, iread_tag, read_num, read_n. cbn [rest last].
  destruct (N.eqb_spec l 0) as [->|]; cbn [negb]; [|discriminate].
  destruct (Nat.leb 3 (length r)); [discriminate|]. destruct r; cbn [bind]; [reflexivity|discriminate].
Qed.

Lemma expect_tag_spec tag s s' : lastok s ->
  (expect_tag tag s = Ok s' <->
   exists t, logical s = be 3 t ++ rest s' /\ last s' = 0 /\ t < 2 ^ 24 /\ (t = tag \/ tag = ANY_TAG)).
Proof.
  intros Hl. unfold expect_tag. rewrite bind_ok. split.
  - intros ([t s0] & Hb & Hk). apply (read_tag_spec s t s0 Hl) in Hb. destruct Hb as (R & La & Ht). exists t.
    destruct (N.eqb_spec tag t), (N.eqb_spec tag ANY_TAG); cbn [negb andb] in Hk; try discriminate; injection Hk as <-; auto.
  - intros (t & R & La & Ht & Hc). exists (t, s'). rewrite (read_tag_spec s t s' Hl). split; [auto|].
    destruct Hc as [<-| ->]; rewrite N.eqb_refl, ?andb_false_r; reflexivity.
Qed.

Lemma read_n_inv n s b s' : read_n n s = Ok (b, s') -> rest s = b ++ rest s' /\ length b = n /\ last s' = last s.
Proof. apply read_n_spec. Qed.
Lemma read_nN_inv n s b s' : read_nN n s = Ok (b, s') -> rest s = b ++ rest s' /\ blen b = n /\ last s' = last s.
Proof. apply read_nN_spec. Qed.
Lemma read_num_inv k s v s' : read_num k s = Ok (v, s') ->
  rest s = be k v ++ rest s' /\ last s' = last s /\ v < 256 ^ N.of_nat k.
Proof. apply read_num_spec. Qed.
Lemma read_tag_inv s t s' : lastok s -> read_tag s = Ok (t, s') ->
  logical s = be 3 t ++ rest s' /\ last s' = 0 /\ t < 2 ^ 24 /\ (last s <> 0 -> t = last s).
Proof.
  intros Hl H. apply read_tag_spec in H; [|assumption]. destruct H as (R & La & Ht).
  repeat split; try assumption. intros E. apply (logical_last s t _ Hl Ht R E).
Qed.

(* the first eight bytes of an item, read by every item decoder *)
Lemma item_header_inv tag st s1 s2 typ len s3 :
  lastok st -> expect_tag tag st = Ok s1 -> read_num 1 s1 = Ok (typ, s2) -> read_num 4 s2 = Ok (len, s3) ->
  exists t, logical st = header t typ len ++ rest s3 /\ last s3 = 0 /\ t < 2 ^ 24 /\ typ < 256 /\ len < 2 ^ 32 /\
            (t = tag \/ tag = ANY_TAG) /\ (last st <> 0 -> t = last st).
Proof.
  intros Hl H1 H2 H3. apply expect_tag_spec in H1; [|assumption]. destruct H1 as (t & L & Z1 & Ht & Hc).
  apply read_num_spec in H2. destruct H2 as (R2 & Z2 & B2). apply read_num_spec in H3. destruct H3 as (R3 & Z3 & B3).
  exists t. unfold header. rewrite L, R2, R3, <- !app_assoc.
  repeat split; auto; try congruence. intros E. apply (logical_last st t _ Hl Ht L E).
Qed.

(* the decoder, started in [st], has taken exactly the item [it] and stands in [st'] *)
Definition heads (it : item) (tag : N) (st st' : dstate) (n : N) : Prop :=
  item_wf it /\ logical st = raw it ++ rest st' /\ last st' = 0 /\ n = i_size it /\
  (i_tag it = tag \/ tag = ANY_TAG) /\ (last st <> 0 -> i_tag it = last st).

(* whatever the item decoder [f] accepts under [tag] is an item that [g] interprets as the value returned *)
Definition item_sound (tag : N) (f : dstate -> dres (val * N * dstate)) (g : item -> option val) : Prop :=
  forall st v n st', lastok st -> f st = Ok (v, n, st') -> exists it, heads it tag st st' n /\ g it = Some v.

(* every item decoder reads the header, then the value and the padding *)
Lemma heads_of_header tag st s1 s2 typ len s3 v p st' :
  lastok st -> expect_tag tag st = Ok s1 -> read_num 1 s1 = Ok (typ, s2) -> read_num 4 s2 = Ok (len, s3) ->
  rest s3 = v ++ p ++ rest st' -> blen v = len -> blen p = pad8 len -> last st' = last s3 ->
  exists t, heads {| i_tag := t; i_typ := typ; i_len := len; i_val := v; i_pad := p |} tag st st' (8 + padded len).
Proof.
  intros Hl H1 H2 H3 R Hv Hp La.
  destruct (item_header_inv _ _ _ _ _ _ _ Hl H1 H2 H3) as (t & L & Z & Ht & Hy & Hn & Hc & Hla).
  exists t. unfold heads, raw; cbn [i_tag i_typ i_len i_val i_pad].
  rewrite L, R, <- !app_assoc. repeat split; auto; congruence.
Qed.

Lemma prim_of_item_eq k it :
  prim_of_item k it =
  if (i_typ it =? type_code k) && match prim_len k with Some l => i_len it =? l | None => true end
  then prim_val k (i_val it) else None.
Proof.
  unfold prim_of_item. destruct (i_typ it =? type_code k); [|reflexivity].
  destruct k; reflexivity.
Qed.

Lemma prim_of_item_val k it : i_typ it = type_code k -> prim_len k = None \/ prim_len k = Some (i_len it) ->
  prim_of_item k it = prim_val k (i_val it).
Proof.
  intros Ety E. rewrite prim_of_item_eq, Ety, N.eqb_refl. destruct E as [->| ->]; [|rewrite N.eqb_refl]; reflexivity.
Qed.

Lemma dec_prim_sound k tag : item_sound tag (dec_prim k tag) (prim_of_item k).
Proof.
  intros st v n st' Hl H. rewrite dec_prim_eq in H. binv H. rename x into s1. binv Hk. rename x into s2.
  apply expect_num_spec in Hb0. unfold dec_payload in Hk0.
  destruct (prim_len k) as [l|] eqn:El.
  - (* mandated length: eight bytes hold the value and its padding *)
    binv Hk0. rename x into s3. binv Hk. destruct x as [b s4]. apply expect_num_spec in Hb1.
    apply read_n_spec in Hb2. destruct Hb2 as (R & L & La).
    destruct (prim_val k _) as [v0|] eqn:Ev; [|discriminate]. injection Hk0 as <- <- <-.
    destruct (prim_len_8 k l El) as [P8 Hle]. rewrite <- (firstn_skipn (N.to_nat l) b), <- app_assoc in R.
    destruct (heads_of_header _ _ _ _ _ _ _ _ _ _ Hl Hb Hb0 Hb1 R) as (t & Hh); [| |assumption|].
    + unfold blen. rewrite firstn_length. lia.
    + unfold blen, padded in *. rewrite skipn_length. lia.
    + rewrite P8 in Hh. eexists; split; [exact Hh|]. rewrite prim_of_item_val; auto.
  - (* the length is on the wire *)
    binv Hk0. destruct x as [l s3]. binv Hk. destruct x as [b s4]. binv Hk0. destruct x as [p s5].
    destruct (prim_val k b) as [v0|] eqn:Ev; [|discriminate]. injection Hk as <- <- <-.
    apply copy_nN_spec, read_nN_spec in Hb2. destruct Hb2 as (R4 & L4 & Z4).
    apply read_nN_spec in Hb3. destruct Hb3 as (R5 & L5 & Z5). rewrite R5 in R4.
    destruct (heads_of_header _ _ _ _ _ _ _ _ _ _ Hl Hb Hb0 Hb1 R4 L4 L5) as (t & Hh); [congruence|].
    unfold padded in Hh. rewrite N.add_assoc in Hh. eexists; split; [exact Hh|]. rewrite prim_of_item_val; auto.
Qed.

Lemma dec_skip_sound tag st n st' : lastok st -> dec_skip tag st = Ok (n, st') -> exists it, heads it tag st st' n.
Proof.
  intros Hl H. unfold dec_skip in H. binv H. rename x into s1. binv Hk. destruct x as [b1 s2].
  binv Hk0. destruct x as [l s3].
  destruct (N.leb_spec (padded l) (blen (rest s3))) as [Hp|]; [|discriminate]. injection Hk as <- <-.
  assert (H1: read_num 1 s1 = Ok (unbe b1 0, s2)) by (unfold read_num; rewrite Hb0; reflexivity).
  destruct (split_front l (pad8 l) (rest s3) Hp) as (v & p & R & Lv & Lp).
  destruct (heads_of_header _ _ _ _ _ _ _ v p {| rest := dropN (padded l) (rest s3); last := last s3 |} Hl Hb H1 Hb1 R Lv Lp eq_refl)
    as (t & Hh).
  eexists. exact Hh.
Qed.

(* A run of the decoder from [dd] to [dd'] (this is what [P_fl], below, concludes): [n] bytes were entered in both
   accounts.  What else is gone from the logical input are peeked tags 000000, three bytes each ([peek_tag] cannot remember
   them); [P] is what is known of a run without such a loss. *)
Definition went (dd : dstate) (actual nsum : N) (dd' : dstate) (actual' nsum' : N) (P : Prop) : Prop :=
  exists n d, blen (logical dd) = n + 3 * d + blen (logical dd') /\
    actual' = actual + n /\ nsum' = nsum + n /\ lastok dd' /\ (d = 0 -> P).

Lemma went_refl dd actual nsum (P : Prop) : lastok dd -> P -> went dd actual nsum dd actual nsum P.
Proof. intros Hl HP. exists 0, 0. repeat split; auto; lia. Qed.

Lemma went_trans {a x y b x1 y1 c x2 y2} {P Q : Prop} :
  went a x y b x1 y1 P -> went b x1 y1 c x2 y2 Q -> went a x y c x2 y2 (P /\ Q).
Proof.
  intros (n1 & d1 & E1 & -> & -> & _ & H1) (n2 & d2 & E2 & -> & -> & Hl & H2). exists (n1 + n2), (d1 + d2).
  do 3 (split; [lia|]). split; [assumption|]. intros Hd. split; [apply H1|apply H2]; lia.
Qed.

Lemma went_mono {a x y b x1 y1} {P Q : Prop} : went a x y b x1 y1 P -> (P -> Q) -> went a x y b x1 y1 Q.
Proof. intros (n & d & E & Hx & Hy & Hl & H) HPQ. exists n, d. repeat split; auto. Qed.

(* the accounts stay below the declared length, so the decoder's arithmetic modulo 2^32 is exact *)
Lemma went_acct {a x y b x1 y1 P} explen : x + blen (logical a) <= explen -> went a x y b x1 y1 P ->
  lastok b /\ x1 + blen (logical b) <= explen.
Proof. intros Hi (n & d & E & -> & _ & Hl & _). split; [assumption|lia]. Qed.

Lemma went_heads {it tag st st' n} actual nsum : heads it tag st st' n ->
  went st actual nsum st' (actual + n) (nsum + n) (logical st = raw it ++ logical st').
Proof.
  intros (Hw & L & Z & -> & _). rewrite <- (logical_zero st' Z) in L. exists (i_size it), 0.
  rewrite L, blen_app, (raw_blen it Hw). repeat split; [lia|apply lastok_zero; assumption].
Qed.

Lemma went_peek {dd t dd1} actual nsum : lastok dd -> peek_tag dd = Ok (t, dd1) ->
  went dd actual nsum dd1 actual nsum (t <> 0 /\ last dd1 = t /\ logical dd1 = logical dd).
Proof.
  intros Hl H. apply peek_tag_spec in H; [|assumption]. destruct H as (L & La & Ht).
  assert (Hl1: lastok dd1) by (unfold lastok; congruence). destruct (N.eq_dec t 0) as [->|Z].
  - exists 0, 1. rewrite L, (logical_zero dd1 La), blen_app, blen_be. do 3 (split; [lia|]). split; [assumption|discriminate].
  - assert (E: logical dd1 = logical dd) by (rewrite L, <- La; apply logical_peeked; congruence).
    exists 0, 0. rewrite E. repeat split; auto; lia.
Qed.

Lemma fold_snoc_list vs : forall l, fold_left vl_snoc vs (vl_of_list l) = vl_of_list (l ++ vs).
Proof.
  induction vs as [|v vs IH]; intros l; cbn [fold_left]; [rewrite app_nil_r; reflexivity|].
  replace (vl_snoc (vl_of_list l) v) with (vl_of_list (l ++ [v])) by (induction l; cbn [app vl_of_list vl_snoc]; congruence).
  rewrite IH, <- app_assoc. reflexivity.
Qed.

Lemma fold_snoc_nil vs : fold_left vl_snoc vs VNone = vl_of_list vs.
Proof. exact (fold_snoc_list vs []). Qed.

(* what a run of the loop has done: taken the items [it :: r], all but the first under [tag] *)
Definition ran (interp : item -> option val) (tag : N) (skip : bool)
           (dd : dstate) (actual nsum : N) (acc es : vlist) (actual' nsum' : N) (dd' : dstate) : Prop :=
  went dd actual nsum dd' actual' nsum'
    (exists it r vs,
       Forall item_wf (it :: r) /\ map_opt interp (it :: r) = Some vs /\
       es = (if skip then acc else fold_left vl_snoc vs acc) /\
       (i_tag it = tag \/ tag = ANY_TAG) /\ (last dd <> 0 -> i_tag it = last dd) /\
       logical dd = flat_raw (it :: r) ++ logical dd' /\ Forall (fun e => i_tag e = tag) r /\
       (logical dd' = [] \/ (last dd' <> 0 /\ last dd' <> tag))).

Lemma ran_one interp tag skip it v nn dd dd1 dd2 actual nsum acc actual' nsum' :
  heads it tag dd dd1 nn -> interp it = Some v ->
  went dd1 (actual + nn) (nsum + nn) dd2 actual' nsum'
    (logical dd2 = logical dd1 /\ (logical dd2 = [] \/ (last dd2 <> 0 /\ last dd2 <> tag))) ->
  ran interp tag skip dd actual nsum acc (if skip then acc else vl_snoc acc v) actual' nsum' dd2.
Proof.
  intros Hh Hint A2. apply (went_mono (went_trans (went_heads actual nsum Hh) A2)).
  destruct Hh as (Hw & _ & _ & _ & Hc & Hla). intros (E1 & E2 & He). rewrite <- E2 in E1.
  exists it, [], [v]. cbn [map_opt flat_raw map concat]. rewrite Hint, app_nil_r.
  repeat split; auto.
Qed.

Lemma ran_cons interp tag skip it v nn dd dd1 dd2 actual nsum acc es actual' nsum' dd' :
  heads it tag dd dd1 nn -> interp it = Some v ->
  went dd1 (actual + nn) (nsum + nn) dd2 (actual + nn) (nsum + nn)
    (tag <> 0 /\ last dd2 = tag /\ logical dd2 = logical dd1) ->
  ran interp tag skip dd2 (actual + nn) (nsum + nn) (if skip then acc else vl_snoc acc v) es actual' nsum' dd' ->
  ran interp tag skip dd actual nsum acc es actual' nsum' dd'.
Proof.
  intros Hh Hint A2 A3. apply (went_mono (went_trans (went_trans (went_heads actual nsum Hh) A2) A3)).
  destruct Hh as (Hw & _ & _ & _ & Hc & Hla).
  intros ((E1 & Hz & Hla3 & E2) & it2 & r2 & vs2 & Hws & Hmap & -> & Hc2 & Hla2 & E3 & Hall & He).
  exists it, (it2 :: r2), (v :: vs2). cbn [map_opt] in *. rewrite Hint, Hmap, (flat_raw_cons it), <- app_assoc, <- E3, E2.
  repeat split; auto.
  - destruct skip; reflexivity.
  - constructor; [|assumption]. rewrite Hla2; congruence.
Qed.

Lemma slice_loop_sound (step : dstate -> dres (val * N * dstate)) (interp : item -> option val)
      (tag : N) (skip : bool) (explen : N) :
  explen < 2 ^ 32 -> item_sound tag step interp ->
  forall fuel dd actual nsum acc es actual' nsum' dd',
  lastok dd -> actual + blen (logical dd) <= explen ->
  slice_loop fuel step tag skip explen dd actual nsum acc = Ok (es, actual', nsum', dd') ->
  ran interp tag skip dd actual nsum acc es actual' nsum' dd'.
Proof.
  intros Hexp Hstep. induction fuel as [|f IH]; intros dd actual nsum acc es actual' nsum' dd' Hl Hinv H; [discriminate|].
  cbn [slice_loop] in H. binv H. destruct x as [[v nn] dd1]. apply wrapped_ok in Hb.
  destruct (Hstep _ _ _ _ Hl Hb) as (it & Hh & Hint).
  destruct (went_acct explen Hinv (went_heads actual nsum Hh)) as [Hl1 Hinv1]. rewrite N.mod_small in Hk by lia.
  destruct (N.leb_spec explen (actual + nn)) as [Hdone|Hmore].
  - (* the declared length is used up *)
    injection Hk as <- <- <- <-. eapply ran_one; [exact Hh|exact Hint|].
    apply went_refl; [assumption|]. split; [reflexivity|]. left. apply blen_0_nil. lia.
  - binv Hk. destruct x as [t dd2]. pose proof (went_peek (actual + nn) (nsum + nn) Hl1 Hb0) as A2.
    destruct (N.eqb_spec t tag) as [->|Et].
    + (* another element *)
      eapply ran_cons; [exact Hh|exact Hint|exact A2|].
      destruct (went_acct explen Hinv1 A2) as [Hl2 Hinv2]. exact (IH _ _ _ _ _ _ _ _ Hl2 Hinv2 Hk0).
    + (* the next item has another tag *)
      injection Hk0 as <- <- <- <-. eapply ran_one; [exact Hh|exact Hint|].
      apply (went_mono A2). intros (Hz & La & E). split; [assumption|]. right. split; congruence.
Qed.

Definition body (it : item) (tl : bytes) : bytes := be 1 (i_typ it) ++ be 4 (i_len it) ++ i_val it ++ i_pad it ++ tl.

Lemma raw_body it tl : raw it ++ tl = be 3 (i_tag it) ++ body it tl.
Proof. unfold raw, header, body. rewrite <- !app_assoc. reflexivity. Qed.

(* the decoder's state once it has peeked at the items [its] *)
Definition peeked (its : list item) : dstate :=
  match its with [] => {| rest := []; last := 0 |} | h :: r => {| rest := body h (flat_raw r); last := i_tag h |} end.

Lemma peek_items its dd : Forall item_wf its -> lastok dd -> logical dd = flat_raw its ->
  peek_tag dd = match its with [] => ErrEOF | h :: _ => Ok (i_tag h, peeked its) end.
Proof.
  intros Hws Hl Lg. destruct its as [|h r].
  - apply logical_nil in Lg. subst dd. reflexivity.
  - apply Forall_cons_iff in Hws. destruct Hws as [(Ht & _) _]. apply peek_tag_spec; [assumption|].
    rewrite Lg, flat_raw_cons, raw_body. auto.
Qed.

Lemma peeked_head dd its : lastok dd -> last dd <> 0 -> Forall item_wf its -> logical dd = flat_raw its ->
  exists h r, its = h :: r /\ i_tag h = last dd.
Proof.
  intros Hl Hz Hw H. pose proof (peek_items its dd Hw Hl H) as E. unfold peek_tag in E.
  destruct (N.eqb_spec (last dd) 0); [contradiction|]. destruct its as [|h r]; [discriminate|]. injection E as E _. eauto.
Qed.

Lemma item_for_iff a it : item_for a it = true <-> i_tag it <> 0 /\ (i_tag it = fa_tag a \/ fa_tag a = ANY_TAG).
Proof. unfold item_for. rewrite andb_true_iff, negb_true_iff, orb_true_iff, N.eqb_neq, !N.eqb_eq. reflexivity. Qed.

(* the decoder's test for an absent optional field, in the specification's terms *)
Lemma absent_item_for a it : i_tag it <> 0 ->
  negb (fa_req a) && negb (i_tag it =? fa_tag a) && negb (fa_tag a =? ANY_TAG) = negb (fa_req a) && negb (item_for a it).
Proof.
  intros Hz. unfold item_for. destruct (N.eqb_spec (i_tag it) 0); [contradiction|].
  cbn [negb andb]. rewrite negb_orb, andb_assoc. reflexivity.
Qed.

Lemma span_tag_spec tag l es rest :
  span_tag tag l = (es, rest) <->
  l = es ++ rest /\ Forall (fun e => i_tag e = tag) es /\ match rest with [] => True | h :: _ => i_tag h <> tag end.
Proof.
  split.
  - revert es. induction l as [|e l IH]; intros es H; cbn [span_tag] in H; [injection H as <- <-; auto|].
    destruct (N.eqb_spec (i_tag e) tag) as [Et|Et]; [|injection H as <- <-; auto].
    destruct (span_tag tag l) as [x y]. injection H as <- <-. destruct (IH x eq_refl) as (-> & Hx & Hy). auto.
  - intros (-> & Hes & Hr). induction Hes as [|e es He _ IH]; cbn [app span_tag].
    + destruct rest as [|h rest']; [reflexivity|]. cbn [span_tag]. destruct (N.eqb_spec (i_tag h) tag); [contradiction|reflexivity].
    + rewrite He, N.eqb_refl, IH. reflexivity.
Qed.

Lemma map_opt_const {A B} (c : B) (l : list A) : map_opt (fun _ => Some c) l = Some (map (fun _ => c) l).
Proof. induction l as [|x l IH]; cbn [map_opt]; [|rewrite IH]; reflexivity. Qed.

(* what the position of field [a] makes of an item: a skipped position takes it whatever it contains *)
Definition field_interp (a : fattr) (s : sch) (cur : vlist) (it : item) : option val :=
  if fa_skip a then Some VNil else interp_val s cur it.

Lemma field_interp_on a s cur : fa_skip a = false -> field_interp a s cur = interp_val s cur.
Proof. intros H. unfold field_interp. rewrite H. reflexivity. Qed.

(* The field [a] (schema [s], slot [i] of [cur]) takes its items off the front of [its]: none, one, or one and
   the maximal run under its tag.  [cur'] is [cur] with the slot filled, [its'] is left to the later fields. *)
Inductive takes (a : fattr) (s : sch) (i : nat) (cur : vlist) : list item -> vlist -> list item -> Prop :=
| takes_absent its :
    fa_req a = false -> match its with [] => True | h :: _ => item_for a h = false end ->
    takes a s i cur its cur its
| takes_single it its v :
    item_for a it = true -> fa_slice a = false -> field_interp a s cur it = Some v ->
    takes a s i cur (it :: its) (if fa_skip a then cur else vl_set i v cur) its
| takes_run it es its vs :
    item_for a it = true -> fa_slice a = true ->
    Forall (fun e => i_tag e = fa_tag a) es -> match its with [] => True | h :: _ => i_tag h <> fa_tag a end ->
    map_opt (field_interp a s cur) (it :: es) = Some vs ->
    takes a s i cur (it :: es ++ its) (vl_set i (VList (if fa_skip a then VNone else vl_of_list vs)) cur) its.

Lemma takes_match a s r i cur its cur' its' : takes a s i cur its cur' its' ->
  match_fields (FCons a s r) i cur its = match_fields r (S i) cur' its'.
Proof.
  intros [its0 Hq Hh|it its0 v Hfor Hsl Hv|it es its0 vs Hfor Hsl Hes Hend Hmap]; cbn [match_fields].
  - destruct its0; [|rewrite Hh]; rewrite Hq; reflexivity.
  - rewrite Hfor, Hsl. destruct (fa_skip a) eqn:Esk; [|rewrite field_interp_on in Hv by assumption; rewrite Hv]; reflexivity.
  - rewrite Hfor, Hsl, (proj2 (span_tag_spec _ _ es its0)) by auto.
    destruct (fa_skip a) eqn:Esk; [|rewrite field_interp_on in Hmap by assumption; rewrite Hmap]; reflexivity.
Qed.

Lemma match_fields_cons_inv a s r i cur its res : match_fields (FCons a s r) i cur its = Some res ->
  exists cur' its', takes a s i cur its cur' its' /\ match_fields r (S i) cur' its' = Some res.
Proof.
  intros H. enough (exists cur' its', takes a s i cur its cur' its') as (cur' & its' & Ht).
  { exists cur', its'. split; [exact Ht|]. rewrite <- (takes_match a s r _ _ _ _ _ Ht). exact H. }
  cbn [match_fields] in H. destruct its as [|it its']; [|destruct (item_for a it) eqn:Efor].
  1,3: (* no item, or one that is not this field's *) destruct (fa_req a) eqn:Eq; [discriminate|]; eexists _, _; apply takes_absent; auto.
  destruct (fa_slice a) eqn:Esl.
  - destruct (span_tag (fa_tag a) its') as [es rest] eqn:Esp. apply span_tag_spec in Esp. destruct Esp as (-> & Hes & Hend).
    destruct (fa_skip a) eqn:Esk.
    + eexists _, _. apply (takes_run a s i cur it es rest); auto. unfold field_interp. rewrite Esk. apply map_opt_const.
    + destruct (map_opt (interp_val s cur) (it :: es)) as [vs|] eqn:Em; [|discriminate].
      eexists _, _. apply (takes_run a s i cur it es rest vs); auto. rewrite field_interp_on; assumption.
  - destruct (fa_skip a) eqn:Esk.
    + eexists _, _. apply (takes_single a s i cur it its' VNil); auto. unfold field_interp. rewrite Esk. reflexivity.
    + destruct (interp_val s cur it) as [v|] eqn:Ev; [|discriminate].
      eexists _, _. apply (takes_single a s i cur it its' v); auto. rewrite field_interp_on; assumption.
Qed.

Lemma run_ends tag dd its : lastok dd -> Forall item_wf its -> logical dd = flat_raw its ->
  (logical dd = [] \/ (last dd <> 0 /\ last dd <> tag)) -> match its with [] => True | h :: _ => i_tag h <> tag end.
Proof.
  intros Hl Hws Hfl [Hn|(Hn1 & Hn2)].
  - rewrite Hn in Hfl. symmetry in Hfl. apply flat_raw_nil in Hfl; [|assumption]. subst its. exact I.
  - destruct (peeked_head dd its Hl Hn1 Hws Hfl) as (h & r & -> & Hh). congruence.
Qed.

Lemma tiled_pad its : Forall item_wf its -> pad8 (blen (flat_raw its)) = 0.
Proof. intros H. unfold pad8. rewrite (flat_raw_mod8 its H). reflexivity. Qed.

Lemma interp_struct ty fl cur it v :
  interp_val (SStruct ty fl) cur it = Some v <->
  exists its vs, i_typ it = tc_structure /\ Forall item_wf its /\ i_val it = flat_raw its /\
                 match_fields fl 0 (zeros_of fl) its = Some (vs, []) /\ v = VStruct ty vs.
Proof.
  cbn [interp_val]. split.
  - destruct (N.eqb_spec (i_typ it) tc_structure) as [Ety|]; [|discriminate].
    destruct (split_items (i_val it)) as [its|] eqn:Es; [|discriminate].
    destruct (match_fields fl 0 (zeros_of fl) its) as [[vs [|? ?]]|] eqn:Em; try discriminate.
    intros H; injection H as <-. apply split_items_exact in Es. destruct Es as (Hws & Ev). exists its, vs. auto.
  - intros (its & vs & -> & Hws & -> & Em & ->). rewrite split_items_raw, Em by assumption. reflexivity.
Qed.

(* a structure's payload is tiled by items, so its length is a multiple of 8 and it has no padding *)
Lemma struct_nopad ty fl cur it v : blen (i_val it) = i_len it -> interp_val (SStruct ty fl) cur it = Some v -> pad8 (i_len it) = 0.
Proof.
  intros Hv H. apply interp_struct in H. destruct H as (its & vs & _ & Hws & Ei & _).
  rewrite <- Hv, Ei. exact (tiled_pad its Hws).
Qed.

Definition P_sch (s : sch) : Prop := forall a st cur v n st', lastok st ->
  dec_value s a st cur = Ok (v, n, st') ->
  exists it, heads it (fa_tag a) st st' n /\ interp_val s cur it = Some v.

Definition P_fl (fl : flist) : Prop := forall i explen dd actual nsum cur vs actual' nsum' dd',
  lastok dd -> explen < 2 ^ 32 -> actual + blen (logical dd) <= explen ->
  dec_fields fl i explen dd actual nsum cur = Ok (vs, actual', nsum', dd') ->
  exists n d, blen (logical dd) = n + 3 * d + blen (logical dd') /\
    actual' = actual + n /\ nsum' = nsum + n /\ lastok dd' /\
    (d = 0 -> logical dd' = [] ->
       exists its, Forall item_wf its /\ logical dd = flat_raw its /\ match_fields fl i cur its = Some (vs, [])).

Definition P_cs (cs : dcases) : Prop := forall key a st v n st', lastok st ->
  dec_cases cs key a st = Ok (v, n, st') ->
  exists it, heads it (fa_tag a) st st' n /\ interp_cases cs key it = Some v.

Definition fl_matched (fl : flist) (i : nat) (cur : vlist) (dd : dstate) (vs : vlist) (dd' : dstate) : Prop :=
  logical dd' = [] ->
  exists its, Forall item_wf its /\ logical dd = flat_raw its /\ match_fields fl i cur its = Some (vs, []).

(* The nested decoder of a structure works on the min len |R| bytes its limit lets through.  If its accounts
   end at the declared length, then nothing was lost to a peeked 000000, nothing is left over, and the region
   was all there. *)
Lemma region_exact fl len (R : bytes) cur vs nsum dd' :
  P_fl fl -> len < 2 ^ 32 ->
  dec_fields fl O len {| rest := takeN len R; last := 0 |} 0 0 cur = Ok (vs, len, nsum, dd') ->
  logical dd' = [] /\ len <= blen R /\ nsum = len /\
  exists its, Forall item_wf its /\ takeN len R = flat_raw its /\ match_fields fl O cur its = Some (vs, []).
Proof.
  intros IH Hlen H.
  apply IH in H; [| apply lastok_fresh | assumption | rewrite logical_fresh, takeN_blen; lia].
  destruct H as (n & d & Hb & Ha & Hn & _ & Hd). rewrite logical_fresh in *. rewrite takeN_blen in Hb.
  assert (Hnil: logical dd' = []) by (apply blen_0_nil; lia).
  split; [exact Hnil|]. split; [lia|]. split; [lia|]. apply Hd; [lia|exact Hnil].
Qed.

Lemma sound_struct ty fl : P_fl fl -> P_sch (SStruct ty fl).
Proof.
  intros IH a st cur v n st' Hl H. cbn [dec_value] in H.
  binv H. rename x into s1. binv Hk. rename x into s2. binv Hk0. destruct x as [len s3].
  binv Hk. destruct x as [[[vs actual] nsum] dd'].
  destruct (N.eqb_spec actual len) as [Ea|]; [|discriminate]. injection Hk0 as <- <- <-. subst actual.
  apply expect_num_spec in Hb0. pose proof (proj1 (read_num_spec _ _ _ _) Hb1) as (_ & _ & B3).
  destruct (region_exact _ _ _ _ _ _ _ IH B3 Hb2) as (_ & Hfull & -> & its & Hws & Hfl & Hm).
  assert (Hv: blen (takeN len (rest s3)) = len) by (rewrite takeN_blen; lia).
  pose proof (tiled_pad its Hws) as Hpad. rewrite <- Hfl, Hv in Hpad.
  destruct (heads_of_header _ _ _ _ _ _ _ (takeN len (rest s3)) [] {| rest := dropN len (rest s3); last := last s3 |}
              Hl Hb Hb0 Hb1 (eq_sym (takeN_dropN _ _)) Hv) as (t & Hh); [rewrite Hpad; reflexivity|reflexivity|].
  unfold padded in Hh. rewrite Hpad, N.add_0_r in Hh. eexists. split; [exact Hh|].
  apply interp_struct. exists its, vs. auto.
Qed.

Lemma dec_item_sound a s cur : P_sch s -> item_sound (fa_tag a) (dec_item a s cur) (field_interp a s cur).
Proof.
  intros IHs st v nn st' Hl H. unfold dec_item, field_interp in *. destruct (fa_skip a); [|exact (IHs _ _ _ _ _ _ Hl H)].
  binv H. destruct x as [n0 st0]. injection Hk as <- <- <-.
  destruct (dec_skip_sound _ _ _ _ Hl Hb) as (it & Hh). exists it. split; [assumption|reflexivity].
Qed.

(* One field of [dec_fields]: the decoder went from [dd] to [dd1] knowing [P], which says that the field has
   taken some items [front]; the later fields, decoded from [dd1] on, are the induction hypothesis
   ([P_fl] concludes [went .. (fl_matched ..)], spelt out). *)
Lemma sound_field {a s r i cur cur' explen} {P : Prop} {dd dd1 actual nsum actual1 nsum1 vs actual' nsum' dd'} :
  P_fl r -> explen < 2 ^ 32 -> actual + blen (logical dd) <= explen ->
  went dd actual nsum dd1 actual1 nsum1 P ->
  dec_fields r (S i) explen dd1 actual1 nsum1 cur' = Ok (vs, actual', nsum', dd') ->
  (P -> exists front, Forall item_wf front /\ logical dd = flat_raw front ++ logical dd1 /\
        forall its, Forall item_wf its -> logical dd1 = flat_raw its -> takes a s i cur (front ++ its) cur' its) ->
  went dd actual nsum dd' actual' nsum' (fl_matched (FCons a s r) i cur dd vs dd').
Proof.
  intros IHr Hexp Hinv A1 Hd Hfront. destruct (went_acct explen Hinv A1) as [Hl1 Hinv1].
  apply (went_mono (went_trans A1 (IHr _ _ _ _ _ _ _ _ _ _ Hl1 Hexp Hinv1 Hd))). intros [HP Hr] Hnil.
  destruct (Hfront HP) as (front & Hwf & Lg & Ht). destruct (Hr Hnil) as (its & Hws & Hfl & Hm).
  exists (front ++ its). split; [apply Forall_app; auto|]. split; [rewrite flat_raw_app, <- Hfl; exact Lg|].
  rewrite (takes_match a s r _ _ _ _ _ (Ht its Hws Hfl)). exact Hm.
Qed.

Lemma sound_cons a s r : P_sch s -> P_fl r -> P_fl (FCons a s r).
Proof.
  intros IHs IHr i explen dd actual nsum cur vs actual' nsum' dd' Hl Hexp Hinv H.
  change (went dd actual nsum dd' actual' nsum' (fl_matched (FCons a s r) i cur dd vs dd')).
  cbn [dec_fields] in H. fold (dec_item a s cur) in H.
  destruct (peek_tag dd) as [[t dd1]| | |] eqn:Ep; try discriminate.
  - (* a tag was peeked *)
    pose proof (went_peek actual nsum Hl Ep) as A0. destruct (went_acct explen Hinv A0) as [Hl1 Hinv1].
    destruct (negb (fa_req a) && negb (t =? fa_tag a) && negb (fa_tag a =? ANY_TAG)) eqn:Eskip.
    + (* optional field, another tag: absent *)
      apply (sound_field IHr Hexp Hinv A0 H).
      intros (Hz & La & E). exists []. split; [constructor|]. split; [symmetry; exact E|]. intros its Hws Hfl.
      destruct (peeked_head dd1 its Hl1) as (h & r' & -> & Hh); [congruence|assumption..|].
      rewrite <- La, <- Hh, absent_item_for, andb_true_iff, !negb_true_iff in Eskip by congruence.
      apply takes_absent; apply Eskip.
    + destruct (fa_slice a) eqn:Esl.
      * (* a sequence *)
        binv H. destruct x as [[[es actual1] nsum1] dd2].
        pose proof (slice_loop_sound _ _ _ _ explen Hexp (dec_item_sound a s cur IHs) _ _ _ _ _ _ _ _ _ Hl1 Hinv1 Hb) as A1.
        apply (sound_field IHr Hexp Hinv (went_trans A0 A1) Hk).
        intros ((Hz & La & E) & it & r' & vs1 & Hws1 & Hmap & -> & Hc & Hla & Lg & Hall & Hend).
        exists (it :: r'). split; [assumption|]. split; [rewrite <- E; exact Lg|]. intros its Hws Hfl.
        rewrite fold_snoc_nil. apply takes_run; try assumption.
        -- apply item_for_iff. split; [rewrite Hla|]; congruence.
        -- destruct (went_acct explen Hinv1 A1) as [Hl2 _]. exact (run_ends _ _ _ Hl2 Hws Hfl Hend).
      * (* a single item *)
        binv H. destruct x as [[v nn] dd2]. apply wrapped_ok in Hb.
        destruct (dec_item_sound a s cur IHs _ _ _ _ Hl1 Hb) as (it & Hh & Hv). pose proof (went_heads actual nsum Hh) as A1.
        destruct (went_acct explen Hinv1 A1) as [_ Hinv2]. rewrite N.mod_small in Hk by lia.
        apply (sound_field IHr Hexp Hinv (went_trans A0 A1) Hk).
        intros ((Hz & La & E) & Lg). destruct Hh as (Hw & _ & _ & _ & Hc & Hla).
        exists [it]. split; [constructor; [assumption|constructor]|]. split; [rewrite <- E, Lg, flat_raw_cons, <- app_assoc; reflexivity|]. intros its _ _.
        apply takes_single; try assumption. apply item_for_iff. split; [rewrite Hla|]; congruence.
  - (* end of the structure *)
    apply peek_tag_eof in Ep. subst dd. destruct (fa_req a) eqn:Ereq; [discriminate|].
    apply (sound_field IHr Hexp Hinv (went_refl _ actual nsum True Hl I) H).
    intros _. exists []. split; [constructor|]. split; [reflexivity|]. intros its Hws Hfl.
    symmetry in Hfl. apply flat_raw_nil in Hfl; [|assumption]. subst its. apply takes_absent; auto.
Qed.

Theorem decoder_sound :
  (forall s, P_sch s) /\ (forall fl, P_fl fl) /\ (forall cs, P_cs cs).
Proof.
  apply sch_mutind.
  - (* SPrim *) intros k a st cur. exact (dec_prim_sound k (fa_tag a) st).
  - (* SStruct *) intros ty fl IH. apply sound_struct. exact IH.
  - (* SDyn *) intros holder ki cs IH a st cur v n st' Hl H. exact (IH _ _ _ _ _ _ Hl H).
  - (* FNil *) intros i explen dd actual nsum cur vs actual' nsum' dd' Hl Hexp Hinv H.
    injection H as <- <- <- <-. apply went_refl; [assumption|].
    intros Hnil. exists []. split; [constructor|]. split; [assumption|reflexivity].
  - (* FCons *) intros a s IHs r IHr. apply sound_cons; assumption.
  - (* DNil *) discriminate.
  - (* DCase *) intros k s IHs r IHr key a st v n st' Hl H. cbn [dec_cases] in H. cbn [interp_cases].
    destruct (key_matches k key); [exact (IHs _ _ _ _ _ _ Hl H)|exact (IHr _ _ _ _ _ _ Hl H)].
Qed.

(* the decoder stands in front of the item [it] followed by [tl] (its tag possibly peeked already) *)
Definition at_head (it : item) (tl : bytes) (st : dstate) : Prop := lastok st /\ logical st = raw it ++ tl.

(* the item decoder [f] accepts under [tag] every item that [g] interprets, with that value *)
Definition item_complete (tag : N) (f : dstate -> dres (val * N * dstate)) (g : item -> option val) : Prop :=
  forall it tl st v, item_wf it -> at_head it tl st -> (i_tag it = tag \/ tag = ANY_TAG) -> g it = Some v ->
    f st = Ok (v, i_size it, {| rest := tl; last := 0 |}).

Lemma expect_tag_head tag it tl st : item_wf it -> at_head it tl st -> (i_tag it = tag \/ tag = ANY_TAG) ->
  expect_tag tag st = Ok {| rest := body it tl; last := 0 |}.
Proof.
  intros (Ht & _) [Hl Lg] Hc. apply expect_tag_spec; [assumption|]. exists (i_tag it). rewrite Lg, raw_body. auto.
Qed.

(* a tag 000000 cannot be remembered as peeked *)
Lemma peeked_at its : Forall item_wf its -> match its with [] => True | h :: _ => i_tag h <> 0 end ->
  lastok (peeked its) /\ logical (peeked its) = flat_raw its.
Proof.
  intros Hws Hz. destruct its as [|h r]; [split; [apply lastok_zero|]; reflexivity|].
  apply Forall_cons_iff in Hws. destruct Hws as [(Ht & _) _]. split; [exact Ht|].
  rewrite logical_peeked by assumption. symmetry. apply raw_body.
Qed.

Lemma dec_prim_complete k tag : item_complete tag (dec_prim k tag) (prim_of_item k).
Proof.
  intros it tl st v Hw Hh Hc Hp. rewrite dec_prim_eq, (expect_tag_head tag it tl st Hw Hh Hc). cbn [bind].
  destruct Hw as (Ht & Hy & Hl & Hv & Hpd). rewrite prim_of_item_eq in Hp.
  destruct (N.eqb_spec (i_typ it) (type_code k)) as [Ety|]; [|discriminate]. cbn [andb] in Hp.
  unfold body. rewrite Ety, expect_num_be by apply type_code_lt. cbn [bind].
  unfold dec_payload, i_size. destruct (prim_len k) as [l|] eqn:El.
  - (* mandated length: value and padding are the eight bytes read *)
    destruct (N.eqb_spec (i_len it) l) as [E|]; [|discriminate]. destruct (prim_len_8 k l El) as [P8 Hle].
    unfold blen, padded in *. rewrite E in *. rewrite expect_num_be by exact Hl. cbn [bind].
    rewrite (app_assoc (i_val it)), read_n_app by (rewrite app_length; lia). cbn [bind].
    rewrite firstn_exact, Hp, P8 by lia. reflexivity.
  - rewrite read_num_be by exact Hl. cbn [bind]. rewrite copy_nN_app by assumption. cbn [bind].
    rewrite read_nN_app by assumption.
    rewrite Hp. unfold padded. rewrite N.add_assoc. reflexivity.
Qed.

Lemma dec_skip_complete tag it tl st :
  item_wf it -> at_head it tl st -> (i_tag it = tag \/ tag = ANY_TAG) ->
  dec_skip tag st = Ok (i_size it, {| rest := tl; last := 0 |}).
Proof.
  intros Hw Hh Hc. unfold dec_skip. rewrite (expect_tag_head tag it tl st Hw Hh Hc). cbn [bind].
  destruct Hw as (Ht & Hy & Hl & Hv & Hpd). unfold body.
  rewrite read_n_app by apply be_length. cbn [bind]. rewrite read_num_be by exact Hl. cbn [bind rest last].
  assert (Hb: blen (i_val it ++ i_pad it) = padded (i_len it)) by (rewrite blen_app; unfold padded; lia).
  rewrite (app_assoc (i_val it)). rewrite <- Hb.
  destruct (N.leb_spec (blen (i_val it ++ i_pad it)) (blen ((i_val it ++ i_pad it) ++ tl))) as [_|Hx]; [|rewrite blen_app in Hx; lia].
  rewrite dropN_app. unfold i_size. rewrite Hb. reflexivity.
Qed.

Lemma at_head_fresh it tl : at_head it tl {| rest := raw it ++ tl; last := 0 |}.
Proof. split; [apply lastok_fresh|reflexivity]. Qed.

(* the loop on items it knows, [it] and then [rem]: it takes [it] and goes on as [span_tag] does on [rem] *)
Lemma slice_loop_complete (step : dstate -> dres (val * N * dstate)) (interp : item -> option val)
      (tag : N) (skip : bool) (explen : N) :
  explen < 2 ^ 32 -> tag <> 0 -> item_complete tag step interp ->
  forall fuel it rem es its dd actual nsum acc vs,
  Forall item_wf (it :: rem) -> span_tag tag rem = (es, its) ->
  at_head it (flat_raw rem) dd -> (i_tag it = tag \/ tag = ANY_TAG) ->
  map_opt interp (it :: es) = Some vs ->
  explen = actual + blen (flat_raw (it :: rem)) -> (length rem < fuel)%nat ->
  slice_loop fuel step tag skip explen dd actual nsum acc =
    Ok ((if skip then acc else fold_left vl_snoc vs acc),
        actual + blen (flat_raw (it :: es)), nsum + blen (flat_raw (it :: es)), peeked its).
Proof.
  intros Hexp Htz Hstep. induction fuel as [|f IH];
    intros it rem es its dd actual nsum acc vs Hws Hsp Hh Hc Hmap Hlen Hf; [lia|].
  cbn [slice_loop]. apply Forall_cons_iff in Hws. destruct Hws as [Hw Hws].
  cbn [map_opt] in Hmap. destruct (interp it) as [v|] eqn:Ev; [|discriminate].
  destruct (map_opt interp es) as [vs'|] eqn:Em; [|discriminate]. injection Hmap as <-.
  rewrite (Hstep it _ dd v Hw Hh Hc Ev). cbn [wrapped bind fold_left].
  rewrite blen_flat_cons in * by assumption. rewrite N.add_assoc in Hlen. rewrite N.mod_small by lia.
  destruct rem as [|h l]; cbn [span_tag] in Hsp.
  - (* nothing follows: the declared length is used up *)
    injection Hsp as <- <-. injection Em as <-.
    rewrite N.add_0_r in *. rewrite <- Hlen, N.leb_refl. reflexivity.
  - (* something follows: the loop peeks at it and compares the tag *)
    pose proof (Forall_inv Hws) as Hwh. pose proof (blen_flat_cons h l Hwh). pose proof (i_size_ge h).
    destruct (N.leb_spec explen (actual + i_size it)) as [Hx|_]; [lia|].
    rewrite (peek_items (h :: l) _ Hws (lastok_fresh (flat_raw (h :: l))) eq_refl). cbn [bind].
    destruct (N.eqb_spec (i_tag h) tag) as [Et|_].
    + (* another element *)
      destruct (span_tag tag l) as [es' its'] eqn:Esp. injection Hsp as <- <-.
      destruct (peeked_at (h :: l) Hws) as [Hl1 Lg1]; [congruence|].
      rewrite (IH h l es' its' _ _ _ _ vs' Hws Esp (conj Hl1 Lg1) (or_introl Et) Em Hlen);
        [|apply Nat.succ_lt_mono; exact Hf].
      rewrite !N.add_assoc. destruct skip; reflexivity.
    + (* an item under another tag: the run ends *)
      injection Hsp as <- <-. injection Em as <-. rewrite N.add_0_r. reflexivity.
Qed.

Definition Q_sch (s : sch) : Prop := forall a cur it tl st v,
  item_wf it -> at_head it tl st -> (i_tag it = fa_tag a \/ fa_tag a = ANY_TAG) ->
  interp_val s cur it = Some v ->
  dec_value s a st cur = Ok (v, i_size it, {| rest := tl; last := 0 |}).

Definition Q_fl (fl : flist) : Prop := forall i explen dd actual nsum cur its vs,
  Forall item_wf its -> match_fields fl i cur its = Some (vs, []) ->
  lastok dd -> logical dd = flat_raw its ->
  explen = actual + blen (flat_raw its) -> explen < 2 ^ 32 ->
  exists dd', dec_fields fl i explen dd actual nsum cur = Ok (vs, explen, nsum + blen (flat_raw its), dd').

Definition Q_cs (cs : dcases) : Prop := forall key a it tl st v,
  item_wf it -> at_head it tl st -> (i_tag it = fa_tag a \/ fa_tag a = ANY_TAG) ->
  interp_cases cs key it = Some v ->
  dec_cases cs key a st = Ok (v, i_size it, {| rest := tl; last := 0 |}).

Lemma dec_item_complete a s cur : Q_sch s -> item_complete (fa_tag a) (dec_item a s cur) (field_interp a s cur).
Proof.
  intros IHs it tl st v Hw Hh Hc Hv. unfold dec_item, field_interp in *.
  destruct (fa_skip a); [|exact (IHs a cur it tl st v Hw Hh Hc Hv)].
  injection Hv as <-. rewrite (dec_skip_complete _ it tl st Hw Hh Hc). reflexivity.
Qed.

(* an item with tag 000000 is never taken by any field *)
Lemma match_fields_tag0 fl : forall i cur its vs, match_fields fl i cur its = Some (vs, []) ->
  match its with [] => True | h :: _ => i_tag h <> 0 end.
Proof.
  induction fl as [|a s r IH]; intros i cur [|h its] vs H; try exact I; cbn [match_fields] in H.
  - (* no field is left to take h *) discriminate.
  - (* with the tag 0, h is for no field: an optional one leaves it to those after it *)
    intros Hz. unfold item_for in H. rewrite Hz in H. cbn [N.eqb negb andb] in H.
    destruct (fa_req a); [discriminate|]. exact (IH _ _ _ _ H Hz).
Qed.

Lemma complete_struct ty fl : Q_fl fl -> Q_sch (SStruct ty fl).
Proof.
  intros IH a cur it tl st v Hw Hh Hc Hv.
  cbn [dec_value]. rewrite (expect_tag_head (fa_tag a) it tl st Hw Hh Hc). cbn [bind].
  destruct Hw as (Ht & Hy & Hl & Hvl & Hpd). pose proof (struct_nopad _ _ _ _ _ Hvl Hv) as P.
  apply interp_struct in Hv. destruct Hv as (its & vs & Ety & Hws & Ev & Em & ->).
  assert (Hpn: i_pad it = []) by (apply blen_0_nil; congruence).
  unfold body. rewrite Ety, Hpn. rewrite expect_num_be by reflexivity. cbn [bind].
  rewrite read_num_be by exact Hl. cbn [bind]. cbn [rest last].
  rewrite <- Hvl. rewrite takeN_app, dropN_app.
  destruct (IH 0%nat (blen (i_val it)) {| rest := i_val it; last := 0 |} 0 0 (zeros_of fl) its vs Hws Em) as (dd' & Ed).
  - apply lastok_fresh.
  - rewrite logical_fresh. exact Ev.
  - rewrite Ev. reflexivity.
  - rewrite Hvl. assumption.
  - rewrite Ed. cbn [bind]. rewrite N.eqb_refl. unfold i_size, padded. rewrite P, <- Ev, Hvl, N.add_0_r. reflexivity.
Qed.

Lemma complete_cons a s r : Q_sch s -> Q_fl r -> Q_fl (FCons a s r).
Proof.
  intros IHs IHr i explen dd actual nsum cur its vs Hws Hm Hl Lg Hlen Hexp.
  cbn [dec_fields]. fold (dec_item a s cur). pose proof (match_fields_tag0 _ _ _ _ _ Hm) as Hz.
  apply match_fields_cons_inv in Hm. destruct Hm as (cur' & its' & Ht & Hm).
  rewrite (peek_items its dd Hws Hl Lg). destruct (peeked_at its Hws Hz) as [Hl2 Lg2].
  destruct Ht as [its0 Hq Hnot|it its0 v Hfor Hsl Hv|it es its1 vs1 Hfor Hsl Htags Hend Hmap].
  - (* absent *)
    destruct its0 as [|it its0].
    + (* no item is left *)
      apply logical_nil in Lg. subst dd. rewrite Hq. exact (IHr _ _ _ _ _ _ _ _ Hws Hm Hl2 Lg2 Hlen Hexp).
    + (* the next item belongs to a later field *)
      rewrite absent_item_for, Hnot, Hq by assumption. exact (IHr _ _ _ _ _ _ _ _ Hws Hm Hl2 Lg2 Hlen Hexp).
  - (* a single item *)
    rewrite absent_item_for, Hfor, Hsl, andb_false_r by assumption. apply item_for_iff in Hfor.
    apply Forall_cons_iff in Hws. destruct Hws as [Hw Hws].
    pose proof (dec_item_complete a s cur IHs it (flat_raw its0) _ v Hw (conj Hl2 Lg2) (proj2 Hfor) Hv) as Ei.
    unfold dec_item in Ei. rewrite Ei. cbn [wrapped bind].
    rewrite blen_flat_cons in * by assumption. rewrite N.mod_small by lia. rewrite N.add_assoc in *.
    exact (IHr _ _ _ _ _ _ _ _ Hws Hm (lastok_fresh _) eq_refl Hlen Hexp).
  - (* a sequence *)
    rewrite absent_item_for, Hfor, Hsl, andb_false_r by assumption. apply item_for_iff in Hfor. destruct Hfor as [_ Hc].
    assert (Htz: fa_tag a <> 0) by (destruct Hc as [ <- | -> ]; [assumption|discriminate]).
    pose proof (proj2 (span_tag_spec _ _ _ _) (conj eq_refl (conj Htags Hend))) as Hsp.
    rewrite (slice_loop_complete _ _ _ (fa_skip a) explen Hexp Htz (dec_item_complete a s cur IHs)
               _ it _ es its1 _ actual nsum VNone vs1 Hws Hsp (conj Hl2 Lg2) Hc Hmap Hlen).
    2: { (* the fuel is the bytes after the peeked tag: every item still to come has eight at least *)
         pose proof (flat_raw_len _ (Forall_inv_tail Hws)) as H8. cbn [peeked rest]. unfold body. rewrite !app_length in *. lia. }
    cbn [bind]. rewrite fold_snoc_nil. apply Forall_cons_iff, proj2, Forall_app, proj2 in Hws.
    destruct (peeked_at its1 Hws (match_fields_tag0 _ _ _ _ _ Hm)) as [Hl1 Lg1].
    assert (E: blen (flat_raw (it :: es ++ its1)) = blen (flat_raw (it :: es)) + blen (flat_raw its1))
      by (rewrite <- blen_app, <- flat_raw_app; reflexivity).
    rewrite E, N.add_assoc in *. exact (IHr _ _ _ _ _ _ _ _ Hws Hm Hl1 Lg1 Hlen Hexp).
Qed.

Theorem decoder_complete :
  (forall s, Q_sch s) /\ (forall fl, Q_fl fl) /\ (forall cs, Q_cs cs).
Proof.
  apply sch_mutind.
  - (* SPrim *) intros k a cur it tl st v Hw Hh Hc Hv.
    exact (dec_prim_complete k (fa_tag a) it tl st v Hw Hh Hc Hv).
  - (* SStruct *) intros ty fl IH. apply complete_struct. exact IH.
  - (* SDyn *) intros holder ki cs IH a cur it tl st v Hw Hh Hc Hv.
    exact (IH _ a it tl st v Hw Hh Hc Hv).
  - (* FNil *) intros i explen dd actual nsum cur its vs Hws Hm Hl Lg Hlen Hexp.
    injection Hm as <- ->. exists dd.
    rewrite Hlen, !N.add_0_r. reflexivity.
  - (* FCons *) intros a s IHs r IHr. apply complete_cons; assumption.
  - (* DNil *) discriminate.
  - (* DCase *) intros k s IHs r IHr key a it tl st v Hw Hh Hc Hv. cbn [dec_cases]. cbn [interp_cases] in Hv.
    destruct (key_matches k key).
    + exact (IHs a VNone it tl st v Hw Hh Hc Hv).
    + exact (IHr key a it tl st v Hw Hh Hc Hv).
Qed.

(* [spec_decode] takes the item at the head of [bs], a structure under [tag], and interprets it.  It does not ask for
   the padding to be there, [head_item] does: a structure's payload is tiled, so it has none *)
Lemma spec_decode_head ty tag fl bs :
  spec_decode ty tag fl bs =
  match head_item bs with
  | Some (it, _) =>
      if i_tag it =? tag then match interp_val (SStruct ty fl) VNone it with Some v => Some (v, i_size it) | None => None end
      else None
  | None => None
  end.
Proof.
  unfold spec_decode, head_item. destruct (N.ltb_spec (blen bs) 8) as [|H8]; [reflexivity|].
  set (len := unbe (firstn 4 (skipn 4 bs)) 0). set (it0 := {| i_tag := _; i_typ := _; i_len := len; i_val := _; i_pad := [] |}).
  assert (Hnp: 8 + len <= blen bs -> forall v, interp_val (SStruct ty fl) VNone it0 = Some v -> pad8 len = 0).
  { intros Hfull v. apply (struct_nopad ty fl VNone it0 v).
    unfold it0, blen in *; cbn [i_val i_len]. rewrite firstn_length, skipn_length. lia. }
  unfold padded.
  destruct (N.ltb_spec (blen bs) (8 + (len + pad8 len))) as [Hshort|Hp].
  - destruct (_ =? tag); [|reflexivity]. destruct (N.ltb_spec (blen bs) (8 + len)) as [|Hfull]; [reflexivity|].
    destruct (interp_val _ _ it0) as [v|]; [|reflexivity]. specialize (Hnp Hfull v eq_refl). lia.
  - destruct (_ =? tag); [|reflexivity]. destruct (N.ltb_spec (blen bs) (8 + len)) as [|Hfull]; [lia|].
    unfold i_size, padded. cbn [interp_val i_typ i_val i_len] in *.
    destruct (if _ =? tc_structure then _ else _) as [v|]; [|reflexivity]. rewrite (Hnp Hfull v eq_refl), N.add_0_r. reflexivity.
Qed.

Lemma spec_decode_iff ty tag fl bs v n :
  spec_decode ty tag fl bs = Some (v, n) <->
  exists it tl, item_wf it /\ bs = raw it ++ tl /\ i_tag it = tag /\ n = i_size it /\
                interp_val (SStruct ty fl) VNone it = Some v.
Proof.
  rewrite spec_decode_head. split.
  - destruct (head_item bs) as [[it tl]|] eqn:Eh; [|discriminate]. apply head_item_inv in Eh. destruct Eh as [Hw ->].
    destruct (N.eqb_spec (i_tag it) tag); [|discriminate]. destruct (interp_val _ _ it) as [v0|] eqn:Ev; [|discriminate].
    intros H; injection H as <- <-. exists it, tl. auto.
  - intros (it & tl & Hw & -> & <- & -> & Hv). rewrite head_item_raw, N.eqb_refl, Hv by assumption. reflexivity.
Qed.

Theorem dec_top_sound ty tag fl bs v n st' :
  tag <> ANY_TAG ->
  dec_top ty tag fl {| rest := bs; last := 0 |} = Ok (v, n, st') ->
  spec_decode ty tag fl bs = Some (v, n) /\ st' = {| rest := skipn (N.to_nat n) bs; last := 0 |}.
Proof.
  intros Hany H.
  destruct (proj1 decoder_sound (SStruct ty fl) (top_attr tag) _ VNone v n st' (lastok_fresh _) H)
    as (it & (Hw & Lg & Z & -> & [Hc|Hc] & _) & Hv); [|contradiction].
  rewrite logical_fresh in Lg. split.
  - apply spec_decode_iff. exists it, (rest st'). auto.
  - rewrite Lg, skipn_raw by assumption. destruct st'; cbn in *; congruence.
Qed.

Theorem dec_top_complete ty tag fl bs v n :
  spec_decode ty tag fl bs = Some (v, n) ->
  dec_top ty tag fl {| rest := bs; last := 0 |} = Ok (v, n, {| rest := skipn (N.to_nat n) bs; last := 0 |}).
Proof.
  intros H. apply spec_decode_iff in H. destruct H as (it & tl & Hw & -> & Et & -> & Hv).
  rewrite skipn_raw by assumption.
  exact (proj1 decoder_complete (SStruct ty fl) (top_attr tag) VNone it tl _ v Hw (at_head_fresh it tl) (or_introl Et) Hv).
Qed.

Theorem decoder_is_spec ty tag fl bs v n st' :
  tag <> ANY_TAG ->
  (dec_top ty tag fl {| rest := bs; last := 0 |} = Ok (v, n, st') <->
   spec_decode ty tag fl bs = Some (v, n) /\ st' = {| rest := skipn (N.to_nat n) bs; last := 0 |}).
Proof.
  intros Hany. split.
  - apply dec_top_sound. exact Hany.
  - intros [H ->]. apply dec_top_complete. exact H.
Qed.

(* the decoder rejects (with one of its two error classes) exactly what the specification rejects *)
Corollary decoder_rejects ty tag fl bs : tag <> ANY_TAG ->
  (spec_decode ty tag fl bs = None <->
   dec_top ty tag fl {| rest := bs; last := 0 |} = Err \/ dec_top ty tag fl {| rest := bs; last := 0 |} = ErrEOF).
Proof.
  intros Hany. split.
  - intros Hs. destruct (dec_top ty tag fl {| rest := bs; last := 0 |}) as [[[v n] st']| | |] eqn:E; auto.
    + apply dec_top_sound in E; [|exact Hany]. destruct E as [E _]. congruence.
    + exfalso. exact (dec_top_total _ _ _ _ E).
  - intros Hd. destruct (spec_decode ty tag fl bs) as [[v n]|] eqn:E; [|reflexivity].
    apply dec_top_complete in E. destruct Hd as [Hd|Hd]; congruence.
Qed.

(* no proper prefix of an accepted message is accepted *)
Corollary truncation_rejected ty tag fl bs v n k :
  tag <> ANY_TAG -> spec_decode ty tag fl bs = Some (v, n) -> (k < N.to_nat n)%nat ->
  spec_decode ty tag fl (firstn k bs) = None.
Proof.
  intros _ H Hk. destruct (spec_decode ty tag fl (firstn k bs)) as [[v' n']|] eqn:E; [exfalso|reflexivity].
  apply spec_decode_iff in H. destruct H as (it & tl & Hw & -> & _ & -> & _).
  apply spec_decode_iff in E. destruct E as (it' & tl' & Hw' & E & _).
  (* the prefix begins with an item; the whole begins with the same bytes, so with the same item, all of which the prefix holds *)
  pose proof (head_item_raw it tl Hw) as H1.
  rewrite <- (firstn_skipn k (raw it ++ tl)), E, <- app_assoc, (head_item_raw it') in H1 by assumption. injection H1 as -> _.
  apply (f_equal (@length byte)) in E. rewrite firstn_length, !app_length in E. pose proof (raw_blen it Hw). unfold blen in *. lia.
Qed.
