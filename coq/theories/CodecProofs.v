(* CodecProofs.v - the bottom layer of the codec proofs: C02 (the encoder emits exactly [ser (to_tree v)]), the
   flat readers of Codec.v with one characterisation (an iff) each - the tag readers get theirs in DenoteProofs.v,
   over the logical input -, and C03 (the decoder model is total: its fuel always suffices). *)
From Coq Require Import String.
From Coq Require Import List NArith ZArith Bool Lia Strings.Byte.
Require Import Bytes BytesProofs Schema Codec TTLV.
Import ListNotations.
Open Scope N_scope.

Scheme val_ind2 := Induction for val Sort Prop
  with vlist_ind2 := Induction for vlist Sort Prop.
Combined Scheme val_mutind from val_ind2, vlist_ind2.

(* the values without parts: the codec treats them alike wherever it does not look at the kind *)
Definition leaf (v : val) : Prop := match v with VStruct _ _ | VList _ | VPtr _ => False | _ => True end.

(* induction over a value with the three readings of its parts kept apart: [F] for the fields of a
   structure, [E] for the elements of a sequence (which a field reaches through its [VList]) *)
Lemma val_ind3 (P : val -> Prop) (F E : vlist -> Prop) :
  (forall v, leaf v -> P v) -> (forall ty fs, F fs -> P (VStruct ty fs)) -> (forall es, E es -> P (VList es)) ->
  (forall v, P v -> P (VPtr v)) ->
  F VNone -> (forall v r, P v -> (forall es, v = VList es -> E es) -> F r -> F (VCons v r)) ->
  E VNone -> (forall v r, P v -> E r -> E (VCons v r)) ->
  (forall v, P v) /\ (forall vs, F vs) /\ (forall es, E es).
Proof.
  intros Hl Hs Hli Hp Hfn Hfc Hen Hec.
  assert (H: (forall v, P v /\ (forall es, v = VList es -> E es)) /\ (forall vs, F vs /\ E vs)).
  { apply val_mutind; try (intros; split; [apply Hl; exact I|discriminate]; fail).
    - intros ty fs [Hf _]. split; [apply Hs; exact Hf|discriminate].
    - intros vs [_ He]. split; [apply Hli; exact He|intros es [= <-]; exact He].
    - intros v [Hv _]. split; [apply Hp; exact Hv|discriminate].
    - split; assumption.
    - intros v [Hv Hve] r [Hf He]. split; [apply Hfc; assumption|apply Hec; assumption]. }
  destruct H as [Hv Hvs]. repeat split; [apply Hv|apply Hvs|apply Hvs].
Qed.

Lemma blen_app (a b : bytes) : blen (a ++ b) = blen a + blen b.
Proof. unfold blen. rewrite app_length. lia. Qed.

Lemma blen_be k n : blen (be k n) = N.of_nat k.
Proof. unfold blen. rewrite be_length. reflexivity. Qed.

Lemma blen_zeros n : blen (zeros n) = N.of_nat n.
Proof. unfold blen. rewrite zeros_length. reflexivity. Qed.

Lemma blen_nil : blen [] = 0.
Proof. reflexivity. Qed.

Lemma blen_cons x (l : bytes) : blen (x :: l) = 1 + blen l.
Proof. unfold blen. cbn [length]. lia. Qed.

Lemma blen_0_nil (l : bytes) : blen l = 0 -> l = [].
Proof. destruct l; [reflexivity|]. rewrite blen_cons. lia. Qed.

Lemma takeN_dropN n (l : bytes) : takeN n l ++ dropN n l = l.
Proof. unfold takeN, dropN. apply firstn_skipn. Qed.

Lemma takeN_blen n (l : bytes) : blen (takeN n l) = N.min n (blen l).
Proof. unfold takeN, blen. rewrite firstn_length. lia. Qed.

Lemma dropN_blen n (l : bytes) : blen (dropN n l) = blen l - N.min n (blen l).
Proof. unfold dropN, blen. rewrite skipn_length. lia. Qed.

Lemma dropN_length n l : (length (dropN n l) <= length l)%nat.
Proof. unfold dropN. rewrite skipn_length. lia. Qed.

(* the cap at the length of the list is how Codec.v keeps [N.to_nat] off lengths taken from the wire; it changes nothing *)
Lemma takeN_firstn n (l : bytes) : takeN n l = firstn (N.to_nat n) l.
Proof.
  unfold takeN. destruct (N.le_ge_cases n (blen l)).
  - rewrite N.min_l by assumption. reflexivity.
  - rewrite N.min_r by assumption. unfold blen in *. rewrite Nat2N.id.
    rewrite firstn_all. symmetry. apply firstn_all2. lia.
Qed.

Lemma dropN_skipn n (l : bytes) : dropN n l = skipn (N.to_nat n) l.
Proof.
  unfold dropN. destruct (N.le_ge_cases n (blen l)).
  - rewrite N.min_l by assumption. reflexivity.
  - rewrite N.min_r by assumption. unfold blen in *. rewrite Nat2N.id.
    rewrite skipn_all. symmetry. apply skipn_all2. lia.
Qed.

Lemma takeN_nil n : takeN n [] = [].
Proof. unfold takeN. apply firstn_nil. Qed.

Lemma takeN_0 (l : bytes) : takeN 0 l = [].
Proof. rewrite takeN_firstn. reflexivity. Qed.

Lemma dropN_0 (l : bytes) : dropN 0 l = l.
Proof. rewrite dropN_skipn. reflexivity. Qed.

Lemma takeN_all n (l : bytes) : blen l <= n -> takeN n l = l.
Proof. intros H. rewrite takeN_firstn. apply firstn_all2. unfold blen in H. lia. Qed.

Lemma dropN_all n (l : bytes) : blen l <= n -> dropN n l = [].
Proof. intros H. rewrite dropN_skipn. apply skipn_all2. unfold blen in H. lia. Qed.

Lemma takeN_pos_nonnil k (l : bytes) : 0 < k -> l <> [] -> takeN k l <> [].
Proof.
  intros Hk Hl E. apply (f_equal blen) in E. rewrite takeN_blen, blen_nil in E.
  destruct l; [contradiction|]. rewrite blen_cons in E. lia.
Qed.

Lemma dropN_of_takeN_nil n (l : bytes) : takeN n l = [] -> dropN n l = l.
Proof. intros E. rewrite <- (takeN_dropN n l) at 2. rewrite E. reflexivity. Qed.

Lemma skipn_length_plus {A} (d x : list A) k : skipn (length d + k) (d ++ x) = skipn k x.
Proof. induction d as [|a d IH]; [reflexivity|exact IH]. Qed.

Lemma takeN_app_le n (d x : bytes) : blen d <= n -> takeN n (d ++ x) = d ++ takeN (n - blen d) x.
Proof.
  intros H. rewrite !takeN_firstn.
  replace (N.to_nat n) with (length d + N.to_nat (n - blen d))%nat by (unfold blen in *; lia).
  apply firstn_app_2.
Qed.

Lemma dropN_app_le n (d x : bytes) : blen d <= n -> dropN n (d ++ x) = dropN (n - blen d) x.
Proof.
  intros H. rewrite !dropN_skipn.
  replace (N.to_nat n) with (length d + N.to_nat (n - blen d))%nat by (unfold blen in *; lia).
  apply skipn_length_plus.
Qed.

Lemma takeN_app (b tl : bytes) : takeN (blen b) (b ++ tl) = b.
Proof. rewrite takeN_app_le, N.sub_diag, takeN_0 by lia. apply app_nil_r. Qed.

Lemma dropN_app (b tl : bytes) : dropN (blen b) (b ++ tl) = tl.
Proof. rewrite dropN_app_le, N.sub_diag by lia. apply dropN_0. Qed.

Scheme ttlv_ind2 := Induction for ttlv Sort Prop
  with tlist_ind2 := Induction for tlist Sort Prop.
Combined Scheme ttlv_mutind from ttlv_ind2, tlist_ind2.

Lemma add_mod8 a b : a mod 8 = 0 -> b mod 8 = 0 -> (a + b) mod 8 = 0.
Proof. intros Ha Hb. rewrite N.add_mod by discriminate. rewrite Ha, Hb. reflexivity. Qed.

Lemma ser_mod8 :
  (forall t, blen (ser t) mod 8 = 0) /\ (forall l, blen (ser_list l) mod 8 = 0).
Proof.
  apply ttlv_mutind.
  - intros tag typ v. cbn [ser]. rewrite !blen_app, !blen_be, blen_zeros, N2Nat.id.
    pose proof (padded_mod8 (blen v)) as H. unfold padded in H.
    replace (N.of_nat 3 + (N.of_nat 1 + (N.of_nat 4 + (blen v + pad8 (blen v)))))
      with (8 + (blen v + pad8 (blen v))) by lia.
    apply add_mod8; [reflexivity|exact H].
  - intros tag cs IH. cbn [ser]. rewrite !blen_app, !blen_be.
    replace (N.of_nat 3 + (N.of_nat 1 + (N.of_nat 4 + blen (ser_list cs)))) with (8 + blen (ser_list cs)) by lia.
    apply add_mod8; [reflexivity|exact IH].
  - reflexivity.
  - intros t IHt r IHr. cbn [ser_list]. rewrite blen_app. apply add_mod8; assumption.
Qed.

(* a structure's declared length is the total size of its serialised children *)
Lemma ser_structure_length tag cs :
  exists hdr, ser (TStructure tag cs) = hdr ++ ser_list cs /\
              hdr = be 3 tag ++ be 1 1 ++ be 4 (blen (ser_list cs)).
Proof. eexists; split; [|reflexivity]. cbn [ser]. rewrite <- !app_assoc. reflexivity. Qed.

Lemma ser_list_app a b : ser_list (tl_app a b) = ser_list a ++ ser_list b.
Proof. induction a as [|t r IH]; cbn [tl_app ser_list]; [reflexivity|]. rewrite IH, app_assoc. reflexivity. Qed.

Definition omap {A B} (f : A -> B) (o : option A) : option B :=
  match o with Some a => Some (f a) | None => None end.

Lemma obind_some {A B} (o : option A) (f : A -> option B) b : obind o f = Some b -> exists a, o = Some a /\ f a = Some b.
Proof. destruct o as [a|]; [|discriminate]. eauto. Qed.

Lemma enc_prim_ser tag k v : enc_prim tag k v = omap ser (prim_item tag k v).
Proof.
  unfold prim_item, enc_prim, prim_bytes, header.
  destruct k, v; try reflexivity.
  (* Bool *) destruct b; reflexivity.
Qed.

Lemma enc_dyn_prim_ser tag v :
  enc_dyn_prim tag v = omap ser (obind (kind_of_val v) (fun k => prim_item tag k v)).
Proof. destruct v; try reflexivity; apply enc_prim_ser. Qed.

Lemma wrap_ser tag cs : wrap tag (ser_list cs) = ser (TStructure tag cs).
Proof. unfold wrap, header, tc_structure. cbn [ser]. rewrite <- !app_assoc. reflexivity. Qed.

Section Canon.
  Variable T : tyenv.

  Lemma wrap_ser_opt tag (o : option tlist) :
    (let? body := omap ser_list o in Some (wrap tag body)) = omap ser (let? cs := o in Some (TStructure tag cs)).
  Proof. destruct o; cbn [obind omap]; [rewrite wrap_ser|]; reflexivity. Qed.

  Lemma enc_canonical_mut :
    (forall v s tag, enc_value T s tag v = omap ser (to_tree T s tag v)) /\
    (forall vs fl, enc_fields T fl vs = omap ser_list (to_fields T fl vs)) /\
    (forall es s tag, enc_elems T s tag es = omap ser_list (to_elems T s tag es)).
  Proof.
    apply val_ind3.
    - (* no parts: a primitive writer or nothing *)
      intros v Hv s tag.
      destruct v; try contradiction; (destruct s; [apply enc_prim_ser|reflexivity|first [reflexivity|apply enc_dyn_prim_ser]]).
    - (* VStruct *) intros ty fs IHf s tag. destruct s as [k|ty' fl|h ki cs]; cbn [enc_value to_tree].
      + apply enc_prim_ser.
      + rewrite IHf. apply wrap_ser_opt.
      + destruct (T ty) as [d|]; [|reflexivity]. cbn [obind]. rewrite IHf. apply wrap_ser_opt.
    - (* VList *) intros vs _ s tag. destruct s; [apply enc_prim_ser|reflexivity|reflexivity].
    - (* VPtr *) intros v IH s tag. destruct s as [k|ty' fl|h ki cs]; [apply enc_prim_ser|reflexivity|].
      destruct v; try apply enc_dyn_prim_ser.
      (* a pointer to a structure: both sides compute to what they are for the structure itself *)
      exact (IH (SDyn h ki cs) tag).
    - (* fields *) intros fl. destruct fl; reflexivity.
    - (* the specification takes the rest first, the encoder the field: every combination of failures is looked at *)
      intros v r IHv IHl IHrf fl. destruct fl as [|a s fr]; [reflexivity|]. cbn [enc_fields to_fields]. rewrite IHrf, IHv.
      destruct ((fa_tag a =? ANY_TAG) || fa_skip a); [destruct (to_fields T fr r); reflexivity|].
      destruct (fa_slice a).
      + destruct v; try (destruct (to_fields T fr r); reflexivity). rewrite (IHl _ eq_refl).
        destruct (to_elems T s (fa_tag a) vs), (to_fields T fr r); cbn [obind omap]; rewrite ?ser_list_app; reflexivity.
      + destruct (fa_req a), (is_zero s v), (to_tree T s (fa_tag a) v), (to_fields T fr r); reflexivity.
    - reflexivity.
    - intros v r IHv IHre s tag. cbn [enc_elems to_elems]. rewrite IHv, IHre.
      destruct (to_tree T s tag v), (to_elems T s tag r); reflexivity.
  Qed.

  Theorem enc_top_canonical v : enc_top T v = omap ser (to_tree_top T v).
  Proof.
    destruct enc_canonical_mut as (_ & Hl & _). unfold enc_top, to_tree_top.
    destruct v as [| | | | | | | | | | |v|]; try reflexivity.
    2: destruct v; try reflexivity.
    (* a structure, met directly or behind a pointer: its fields by [Hl] *)
    all: destruct (T _) as [d|]; [|reflexivity]; cbn [obind]; rewrite Hl; apply wrap_ser_opt.
  Qed.
End Canon.

Lemma bind_ok {A B} (r : dres A) (f : A -> dres B) y :
  bind r f = Ok y <-> exists x, r = Ok x /\ f x = Ok y.
Proof.
  split; [|intros (x & -> & H); exact H].
  destruct r; intros H; try discriminate. eauto.
Qed.

Lemma wrapped_ok {A} (r : dres A) x : wrapped r = Ok x -> r = Ok x.
Proof. destruct r; intros H; try discriminate; exact H. Qed.

(* H : bind r f = Ok y  becomes  x, Hb : r = Ok x, Hk : f x = Ok y  (x0, Hb0, Hk0, ... when used again) *)
Ltac binv H :=
  let x := fresh "x" in let H1 := fresh "Hb" in let H2 := fresh "Hk" in
  apply bind_ok in H; destruct H as [x [H1 H2]].

(* OutOfFuel arises in [slice_loop] only: everything else is Ok/Err/ErrEOF, [bind], [wrapped] and
   case distinctions over them, which [auto with nofuel] walks through (a chain of n binds needs a search
   depth of about 2 n, hence the depths given below) *)
Lemma bind_nofuel {A B} (r : dres A) (f : A -> dres B) :
  r <> OutOfFuel -> (forall x, r = Ok x -> f x <> OutOfFuel) -> bind r f <> OutOfFuel.
Proof. intros Hr Hf. destruct r; [apply Hf; reflexivity|discriminate|discriminate|contradiction]. Qed.

Lemma wrapped_nofuel {A} (r : dres A) : r <> OutOfFuel -> wrapped r <> OutOfFuel.
Proof. destruct r; auto; discriminate. Qed.

Create HintDb nofuel.
#[global] Hint Resolve bind_nofuel wrapped_nofuel : nofuel.
#[global] Hint Extern 0 (_ <> OutOfFuel) => discriminate : nofuel.
#[global] Hint Extern 2 (match ?x with _ => _ end <> OutOfFuel) => destruct x : nofuel.

Lemma read_n_ok n s b s' :
  read_n n s = Ok (b, s') ->
  (length (rest s') + n = length (rest s))%nat /\ last s' = last s /\ b = firstn n (rest s) /\ rest s' = skipn n (rest s).
Proof.
  unfold read_n. destruct (Nat.leb_spec n (length (rest s))) as [Hle|Hlt].
  - intros H; injection H as <- <-. cbn [rest last]. rewrite skipn_length. repeat split; lia.
  - destruct (rest s); discriminate.
Qed.

Lemma read_n_spec n s b s' :
  read_n n s = Ok (b, s') <-> rest s = b ++ rest s' /\ length b = n /\ last s' = last s.
Proof.
  split.
  - intros H. apply read_n_ok in H. destruct H as (Hl & Hla & -> & ->).
    rewrite firstn_skipn, firstn_length. repeat split; [lia|assumption].
  - destruct s' as [r' l']. cbn [rest last]. intros (E & <- & ->). unfold read_n. rewrite E, app_length.
    destruct (Nat.leb_spec (length b) (length b + length r')); [|lia].
    rewrite firstn_exact, skipn_exact by reflexivity. reflexivity.
Qed.

Lemma read_nN_spec n s b s' :
  read_nN n s = Ok (b, s') <-> rest s = b ++ rest s' /\ blen b = n /\ last s' = last s.
Proof.
  unfold read_nN, blen. destruct (N.leb_spec n (N.of_nat (length (rest s)))) as [Hle|Hgt].
  - rewrite read_n_spec. split; intros (E & L & La); (repeat split; [assumption|lia|assumption]).
  - split; [destruct (rest s); discriminate|]. intros (E & L & _). rewrite E, app_length in Hgt. lia.
Qed.

Lemma copy_nN_spec n s x : copy_nN n s = Ok x <-> read_nN n s = Ok x.
Proof. unfold copy_nN, read_nN. destruct (n <=? blen (rest s)); [tauto|]. destruct (rest s); split; discriminate. Qed.

Lemma read_num_spec k s v s' :
  read_num k s = Ok (v, s') <-> rest s = be k v ++ rest s' /\ last s' = last s /\ v < 256 ^ N.of_nat k.
Proof.
  unfold read_num. rewrite bind_ok. split.
  - intros ([b s0] & Hb & Hk). injection Hk as <- <-. apply read_n_spec in Hb. destruct Hb as (E & <- & La).
    rewrite be_unbe. repeat split; [assumption|assumption|apply unbe0_bound].
  - intros (E & La & B). exists (be k v, s'). rewrite read_n_spec, be_length, unbe_be0 by assumption. auto.
Qed.

Lemma expect_num_spec k v s s' : expect_num k v s = Ok s' <-> read_num k s = Ok (v, s').
Proof.
  unfold expect_num. rewrite bind_ok. split.
  - intros ([x s0] & Hb & Hk). destruct (N.eqb_spec x v); [|discriminate]. congruence.
  - intros H. exists (v, s'). rewrite N.eqb_refl. auto.
Qed.

Lemma rest_app_length (s s' : dstate) b : rest s = b ++ rest s' -> (length (rest s') + length b = length (rest s))%nat.
Proof. intros ->. rewrite app_length. lia. Qed.

Lemma read_n_nofuel n s : read_n n s <> OutOfFuel.
Proof. unfold read_n. auto with nofuel. Qed.
#[global] Hint Resolve read_n_nofuel : nofuel.

Lemma read_nN_ok n s b s' :
  read_nN n s = Ok (b, s') -> (length (rest s') <= length (rest s))%nat /\ last s' = last s.
Proof. intros H. apply read_nN_spec in H. destruct H as (E & _ & La). apply rest_app_length in E. split; [lia|assumption]. Qed.

Lemma read_nN_nofuel n s : read_nN n s <> OutOfFuel.
Proof. unfold read_nN. auto with nofuel. Qed.

Lemma copy_nN_nofuel n s : copy_nN n s <> OutOfFuel.
Proof. unfold copy_nN. auto with nofuel. Qed.

Lemma read_num_ok k s x s' :
  read_num k s = Ok (x, s') -> (length (rest s') + k = length (rest s))%nat /\ last s' = last s.
Proof.
  intros H. apply read_num_spec in H. destruct H as (E & La & _). apply rest_app_length in E.
  rewrite be_length in E. auto.
Qed.

Lemma read_num_nofuel k s : read_num k s <> OutOfFuel.
Proof. unfold read_num. auto with nofuel. Qed.
#[global] Hint Resolve read_nN_nofuel copy_nN_nofuel read_num_nofuel : nofuel.

Lemma read_tag_ok s t s' : read_tag s = Ok (t, s') -> (length (rest s') <= length (rest s))%nat.
Proof.
  unfold read_tag, iread_tag. destruct (negb (last s =? 0)).
  - intros H; injection H as <- <-. cbn [rest]. lia.
  - intros H. apply read_num_ok in H. lia.
Qed.

Lemma read_tag_nofuel s : read_tag s <> OutOfFuel.
Proof. unfold read_tag, iread_tag. auto with nofuel. Qed.

#[global] Hint Resolve read_tag_nofuel : nofuel.

Lemma peek_tag_read s : peek_tag s = let* (t, s') := read_tag s in Ok (t, {| rest := rest s'; last := t |}).
Proof. unfold peek_tag, read_tag. destruct s as [r l]. cbn [rest last]. destruct (l =? 0); reflexivity. Qed.

Lemma peek_tag_ok s t s' : peek_tag s = Ok (t, s') -> (length (rest s') <= length (rest s))%nat.
Proof.
  rewrite peek_tag_read. intros H. binv H. destruct x as [t0 s0]. injection Hk as <- <-. exact (read_tag_ok _ _ _ Hb).
Qed.

Lemma peek_tag_nofuel s : peek_tag s <> OutOfFuel.
Proof. rewrite peek_tag_read. auto with nofuel. Qed.
#[global] Hint Resolve peek_tag_nofuel : nofuel.

Lemma expect_tag_ok t s s' : expect_tag t s = Ok s' -> (length (rest s') <= length (rest s))%nat.
Proof.
  unfold expect_tag. intros H. binv H. destruct x as [t' s0].
  destruct (negb (t =? t') && negb (t =? ANY_TAG)); [discriminate|]. injection Hk as <-.
  eapply read_tag_ok; eauto.
Qed.

Lemma expect_tag_nofuel t s : expect_tag t s <> OutOfFuel.
Proof. unfold expect_tag. auto with nofuel. Qed.

Lemma expect_num_nofuel k v s : expect_num k v s <> OutOfFuel.
Proof. unfold expect_num. auto with nofuel. Qed.
#[global] Hint Resolve expect_tag_nofuel expect_num_nofuel : nofuel.

Lemma bind_ext {A B} (r : dres A) (f g : A -> dres B) : (forall x, r = Ok x -> f x = g x) -> bind r f = bind r g.
Proof. intros H. destruct r; cbn [bind]; auto. Qed.

Lemma unbe_ge l : forall acc, acc <= unbe l acc.
Proof. induction l as [|b l IH]; intros acc; cbn [unbe]; [lia|]. specialize (IH (acc * 256 + b2n b)). lia. Qed.

Lemma all_zero_unbe l : all_zero l = true <-> unbe l 0 = 0.
Proof.
  induction l as [|b l IH]; [split; reflexivity|]. cbn [all_zero forallb unbe]. rewrite andb_true_iff.
  rewrite IH. split.
  - intros [Hb Hl]. apply Byte.byte_dec_bl in Hb. subst b. exact Hl.
  - intros H. pose proof (unbe_ge l (0 * 256 + b2n b)) as G.
    assert (Hb: b2n b = 0) by lia. rewrite Hb in H. split; [|exact H].
    rewrite <- (n2b_b2n b), Hb. reflexivity.
Qed.

(* readBool: seven zero bytes and a last byte 0 or 1, i.e. the eight bytes are the number 0 or 1 *)
Lemma bool_payload {A} (t f e : A) (b : bytes) : length b = 8%nat ->
  (if all_zero (firstn 7 b)
   then match skipn 7 b with
        | [x] => if Byte.eqb x x01 then t else if Byte.eqb x x00 then f else e
        | _ => e
        end
   else e) = match unbe b 0 with 0 => f | 1 => t | _ => e end.
Proof.
  intros L. pose proof (skipn_length 7 b) as Ls. rewrite L in Ls.
  destruct (skipn 7 b) as [|x [|y r]] eqn:Es; try discriminate Ls.
  assert (U: unbe b 0 = unbe (firstn 7 b) 0 * 256 + b2n x).
  { rewrite <- (firstn_skipn 7 b) at 1. rewrite unbe_app, Es. reflexivity. }
  destruct (all_zero (firstn 7 b)) eqn:Z.
  - apply all_zero_unbe in Z. rewrite U, Z, N.add_0_l.
    destruct (Byte.eqb x x01) eqn:E1; [apply Byte.byte_dec_bl in E1; subst x; reflexivity|].
    destruct (Byte.eqb x x00) eqn:E0; [apply Byte.byte_dec_bl in E0; subst x; reflexivity|].
    destruct (b2n x) as [|[p|p|]] eqn:Eb; try reflexivity;
      rewrite <- (n2b_b2n x), Eb in E0, E1; discriminate.
  - assert (Hn: unbe (firstn 7 b) 0 <> 0) by (intros C; apply all_zero_unbe in C; congruence).
    destruct (unbe b 0) as [|[p|p|]]; try reflexivity; lia.
Qed.

(* the mandated length of a kind, and the value its payload denotes *)
Definition prim_len (k : kind) : option N :=
  match k with KInt | KEnum | KDur => Some 4 | KLong | KTime | KBool => Some 8 | KBytes | KStr => None end.

Definition prim_val (k : kind) (b : bytes) : option val :=
  match k with
  | KInt => Some (VInt (of_u32 (unbe b 0)))
  | KEnum => Some (VEnum (unbe b 0))
  | KDur => Some (VDur (Z.of_N (unbe b 0) * nanos)%Z)
  | KLong => Some (VLong (of_u64 (unbe b 0)))
  | KTime => Some (VTime (of_u64 (unbe b 0)))
  | KBool => match unbe b 0 with 0 => Some (VBool false) | 1 => Some (VBool true) | _ => None end
  | KBytes => Some (VBytes b)
  | KStr => Some (VStr b)
  end.

Definition dec_payload (k : kind) (s2 : dstate) : dres (val * N * dstate) :=
  match prim_len k with
  | Some l =>
      let* s3 := expect_num 4 l s2 in let* (b, s4) := read_n 8 s3 in
      match prim_val k (firstn (N.to_nat l) b) with Some v => Ok (v, 16, s4) | None => Err end
  | None =>
      let* (l, s3) := read_num 4 s2 in let* (b, s4) := copy_nN l s3 in let* (_, s5) := read_nN (pad8 l) s4 in
      match prim_val k b with Some v => Ok (v, 8 + l + pad8 l, s5) | None => Err end
  end.

Lemma dec_prim_eq k tag s :
  dec_prim k tag s = let* s1 := expect_tag tag s in let* s2 := expect_num 1 (type_code k) s1 in dec_payload k s2.
Proof.
  unfold dec_payload. apply bind_ext; intros s1 _. apply bind_ext; intros s2 _.
  (* the 4-byte kinds and the two of variable length agree by computation *)
  destruct k; try reflexivity.
  (* Long, Time and Bool, after the length and the eight bytes [b]: *)
  all: cbv beta iota delta [prim_len prim_val]; apply bind_ext; intros s3 _; apply bind_ext; intros [b s4] Hb.
  (* dec_payload says [firstn 8 b] for dec_prim's [b], and read_n 8 has returned eight bytes (L) *)
  all: apply read_n_spec in Hb; destruct Hb as (_ & L & _).
  all: rewrite (firstn_all2 (n := N.to_nat 8)) by (rewrite L; reflexivity); try reflexivity.
  (* Bool *) rewrite (bool_payload _ _ _ b L). destruct (unbe b 0) as [|[p|p|]]; reflexivity.
Qed.

Lemma prim_len_8 k l : prim_len k = Some l -> padded l = 8 /\ l <= 8.
Proof. destruct k; intros H; inversion H; split; (reflexivity || discriminate). Qed.

Lemma type_code_lt k : type_code k < 256.
Proof. destruct k; reflexivity. Qed.

Lemma dec_prim_nofuel k tag s : dec_prim k tag s <> OutOfFuel.
Proof. rewrite dec_prim_eq. unfold dec_payload. auto 12 with nofuel. Qed.

Lemma dec_skip_nofuel tag s : dec_skip tag s <> OutOfFuel.
Proof. unfold dec_skip. auto 8 with nofuel. Qed.
#[global] Hint Resolve dec_skip_nofuel : nofuel.

(* every successfully decoded item takes at least its type and length bytes from the reader *)
Lemma dec_prim_progress k tag s v nn s' :
  dec_prim k tag s = Ok (v, nn, s') -> (length (rest s') + 5 <= length (rest s))%nat.
Proof.
  rewrite dec_prim_eq. intros H. binv H. binv Hk.
  apply expect_tag_ok in Hb. apply expect_num_spec, read_num_ok in Hb0.
  unfold dec_payload in Hk0. destruct (prim_len k) as [l|].
  - binv Hk0. binv Hk. destruct x2 as [b s4]. apply expect_num_spec, read_num_ok in Hb1. apply read_n_ok in Hb2.
    destruct (prim_val k _); [|discriminate]. injection Hk0 as _ _ <-. lia.
  - binv Hk0. destruct x1 as [l s3]. binv Hk. destruct x1 as [b s4]. binv Hk0. destruct x1 as [p s5].
    destruct (prim_val k b); [|discriminate]. injection Hk as _ _ <-.
    apply read_num_ok in Hb1. apply copy_nN_spec, read_nN_ok in Hb2. apply read_nN_ok in Hb3. lia.
Qed.

Lemma dec_skip_progress tag s n s' :
  dec_skip tag s = Ok (n, s') -> (length (rest s') + 5 <= length (rest s))%nat.
Proof.
  unfold dec_skip. intros H. binv H. binv Hk. destruct x0 as [b s2]. binv Hk0. destruct x0 as [l s3].
  destruct (N.leb (padded l) (blen (rest s3))); [|discriminate]. injection Hk as <- <-. cbn [rest].
  apply expect_tag_ok in Hb. apply read_n_ok in Hb0. apply read_num_ok in Hb1.
  pose proof (dropN_length (padded l) (rest s3)). lia.
Qed.

Scheme sch_ind2 := Induction for sch Sort Prop
  with flist_ind2 := Induction for flist Sort Prop
  with dcases_ind2 := Induction for dcases Sort Prop.
Combined Scheme sch_mutind from sch_ind2, flist_ind2, dcases_ind2.

Lemma dec_value_progress :
  (forall s a st cur v nn st', dec_value s a st cur = Ok (v, nn, st') ->
      (length (rest st') + 5 <= length (rest st))%nat) /\
  (forall fl : flist, True) /\
  (forall cs key a st v nn st', dec_cases cs key a st = Ok (v, nn, st') ->
      (length (rest st') + 5 <= length (rest st))%nat).
Proof.
  apply sch_mutind.
  - intros k a st cur v nn st' H. cbn [dec_value] in H. eapply dec_prim_progress; eauto.
  - intros ty fl _ a st cur v nn st' H. cbn [dec_value] in H.
    binv H. rename x into s1. binv Hk. rename x into s2. binv Hk0. destruct x as [len s3].
    binv Hk. destruct x as [[[vs actual] nsum] dd'].
    destruct (actual =? len); [|discriminate]. injection Hk0 as <- <- <-. cbn [rest].
    apply expect_tag_ok in Hb. apply expect_num_spec, read_num_ok in Hb0. apply read_num_ok in Hb1.
    pose proof (dropN_length len (rest s3)). lia.
  - intros h ki cs IH a st cur v nn st' H. cbn [dec_value] in H. eapply IH; eauto.
  - exact I.
  - intros; exact I.
  - discriminate.
  - intros k s IHs r IHr key a st v nn st' H. cbn [dec_cases] in H.
    destruct (key_matches k key); [eapply IHs|eapply IHr]; eauto.
Qed.

(* decodeValue at the position of field [a] ([dec_fields] has it inline; [fold] brings it out): a skipped
   position takes its item whatever it contains *)
Definition dec_item (a : fattr) (s : sch) (cur : vlist) (st : dstate) : dres (val * N * dstate) :=
  if fa_skip a then (let* (n, st') := dec_skip (fa_tag a) st in Ok (VNil, n, st')) else dec_value s a st cur.

Lemma dec_item_progress a s cur st v nn st1 :
  dec_item a s cur st = Ok (v, nn, st1) -> (length (rest st1) < length (rest st))%nat.
Proof.
  unfold dec_item. destruct (fa_skip a); intros H.
  - binv H. destruct x as [n st']. injection Hk as _ _ <-. apply dec_skip_progress in Hb. lia.
  - apply (proj1 dec_value_progress) in H. lia.
Qed.

(* the one place where fuel is spent: it suffices because every element shortens the input *)
Lemma slice_loop_nofuel step tag skip explen :
  (forall dd, step dd <> OutOfFuel) ->
  (forall dd v nn dd1, step dd = Ok (v, nn, dd1) -> (length (rest dd1) < length (rest dd))%nat) ->
  forall fuel dd actual nsum acc, (length (rest dd) < fuel)%nat ->
    slice_loop fuel step tag skip explen dd actual nsum acc <> OutOfFuel.
Proof.
  intros Hnf Hprog. induction fuel as [|f IH]; intros dd actual nsum acc Hlt; [lia|].
  cbn [slice_loop]. apply bind_nofuel; [auto with nofuel|]. intros [[v nn] dd1] Hs.
  apply wrapped_ok, Hprog in Hs. destruct (explen <=? _); [discriminate|].
  apply bind_nofuel; [auto with nofuel|]. intros [t dd2] Hp. apply peek_tag_ok in Hp.
  destruct (t =? tag); [|discriminate]. apply IH. lia.
Qed.

Lemma dec_nofuel :
  (forall s a st cur, dec_value s a st cur <> OutOfFuel) /\
  (forall fl i explen dd actual nsum cur, dec_fields fl i explen dd actual nsum cur <> OutOfFuel) /\
  (forall cs key a st, dec_cases cs key a st <> OutOfFuel).
Proof.
  apply sch_mutind.
  - intros k a st cur. apply dec_prim_nofuel.
  - (* the binds of the header, then the fields, for which [auto] finds [IH] *)
    intros ty fl IH a st cur. cbn [dec_value]. auto 10 with nofuel.
  - intros h ki cs IH a st cur. apply IH.
  - discriminate.
  - intros a s IHs r IHr i explen dd actual nsum cur. cbn [dec_fields]. fold (dec_item a s cur).
    assert (Hnf: forall st, dec_item a s cur st <> OutOfFuel) by (intros st; unfold dec_item; auto with nofuel).
    pose proof (peek_tag_nofuel dd) as Hp.
    pose proof (slice_loop_nofuel _ (fa_tag a) (fa_skip a) explen Hnf (dec_item_progress a s cur)) as Hsl.
    destruct (peek_tag dd) as [[t dd1]| | |]; [|auto with nofuel..].
    destruct (_ && _); [apply IHr|]. destruct (fa_slice a); [auto 6 with nofuel|].
    apply bind_nofuel; [apply wrapped_nofuel, Hnf|]. intros [[v nn] dd2] _. apply IHr.
  - discriminate.
  - intros k s IHs r IHr key a st. cbn [dec_cases]. destruct (key_matches k key); [apply IHs|apply IHr].
Qed.

Theorem dec_top_total ty tag fl st : dec_top ty tag fl st <> OutOfFuel.
Proof. unfold dec_top. apply (proj1 dec_nofuel). Qed.

Lemma read_n_app n (b tl : bytes) l : length b = n ->
  read_n n {| rest := b ++ tl; last := l |} = Ok (b, {| rest := tl; last := l |}).
Proof. intros H. apply read_n_spec. auto. Qed.

Lemma read_nN_app n (b tl : bytes) l : blen b = n ->
  read_nN n {| rest := b ++ tl; last := l |} = Ok (b, {| rest := tl; last := l |}).
Proof. intros H. apply read_nN_spec. auto. Qed.

Lemma copy_nN_app n (b tl : bytes) l : blen b = n ->
  copy_nN n {| rest := b ++ tl; last := l |} = Ok (b, {| rest := tl; last := l |}).
Proof. intros H. apply copy_nN_spec, read_nN_app, H. Qed.

Lemma read_num_be k v tl l : v < 256 ^ N.of_nat k ->
  read_num k {| rest := be k v ++ tl; last := l |} = Ok (v, {| rest := tl; last := l |}).
Proof. intros H. apply read_num_spec. auto. Qed.

Lemma expect_num_be k v tl l : v < 256 ^ N.of_nat k ->
  expect_num k v {| rest := be k v ++ tl; last := l |} = Ok {| rest := tl; last := l |}.
Proof. intros H. apply expect_num_spec, read_num_be, H. Qed.

Lemma be3_inj t1 t2 a b : t1 < 2 ^ 24 -> t2 < 2 ^ 24 -> be 3 t1 ++ a = be 3 t2 ++ b -> t1 = t2 /\ a = b.
Proof.
  intros H1 H2 H. pose proof (f_equal (fun l => unbe (firstn 3 l) 0) H) as E. cbv beta in E.
  rewrite !firstn_exact, !unbe_be0 in E by (apply be_length || lia). subst t2.
  split; [reflexivity|]. exact (app_inv_head _ _ _ H).
Qed.

Lemma header_blen tag typ len : blen (header tag typ len) = 8.
Proof. unfold header. rewrite !blen_app, !blen_be. reflexivity. Qed.

Lemma wrap_blen tag body : blen (wrap tag body) = 8 + blen body.
Proof. unfold wrap. rewrite blen_app, header_blen. reflexivity. Qed.

(* from here on [be k n] and [zeros n] stay folded ([cbn] would spell the bytes out for a literal k):
   be_length, blen_be, unbe_be0 and the lemmas above are the way in *)
Global Opaque be zeros.

Lemma tassoc_in k v l : tassoc k l = Some v -> In (k, v) l.
Proof.
  induction l as [|[k' v'] r IH]; cbn [tassoc]; [discriminate|]. destruct (String.eqb_spec k k') as [->|].
  - intros H; injection H as <-. left; reflexivity.
  - intros H. right. apply IH, H.
Qed.

Lemma tassoc_forallb (p : string * (N * flist) -> bool) l :
  forallb p l = true -> forall k v, tassoc k l = Some v -> p (k, v) = true.
Proof. intros H k v E. exact (proj1 (forallb_forall p l) H _ (tassoc_in _ _ _ E)). Qed.
