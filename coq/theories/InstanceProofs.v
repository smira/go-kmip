(* InstanceProofs.v - facts about the regenerated instance (re-checked on every run): evaluated by vm_compute,
   or instances of the generic theorems at the evaluated facts *)
From Coq Require Import String.
From Coq Require Import List ZArith.
Require Import Bytes Schema Codec CodecProofs CodecRT SchemaCheck Session SessionProofs Instance.
Import ListNotations.

Lemma inst_response_fields : response_fields_b inst_T = true.
Proof. vm_compute. reflexivity. Qed.

(* the protocol constants server.go uses, as consts.go declares them *)
Lemma inst_K_values :
  k_success inst_K = 0%N /\ k_failed inst_K = 1%N /\ k_general_failure inst_K = 256%N /\
  k_not_supported inst_K = 5%N /\ k_invalid_message inst_K = 4%N /\ k_discover_versions inst_K = 30%N.
Proof. vm_compute. repeat split; reflexivity. Qed.

(* the schema regenerated from /repo satisfies the conditions of the round-trip theorem: in every
   structure type the wire tags are proper and pairwise distinct, an any-tag field is last, optional
   and skipped, every dynamic field is discriminated by an earlier Enumeration / Text String sibling,
   and every dispatch target is a primitive or a known structure type *)
Lemma inst_table_ok : table_ok_b the_type_table = true.
Proof. vm_compute. reflexivity. Qed.

Lemma inst_codec_env_ok : env_ok inst_T.
Proof. exact (table_env_ok the_type_table inst_table_ok). Qed.

Definition request_tag : N := 4325496.    (* 0x420078 Request Message *)
Definition response_tag : N := 4325499.   (* 0x42007B Response Message *)

(* the field list of a table entry is a very large term: ask for its tag only, so that the
   evaluation leaves [true] and not the entry *)
Lemma type_has_tag (T : tyenv) ty tag :
  match T ty with Some (t, _) => N.eqb t tag | None => false end = true -> exists fl, T ty = Some (tag, fl).
Proof.
  destruct (T ty) as [[t fl]|]; [|discriminate]. intros H. apply N.eqb_eq in H. subst t. exists fl. reflexivity.
Qed.

Lemma inst_request_type : exists fl, inst_T "Request" = Some (request_tag, fl).
Proof. apply type_has_tag. vm_compute. reflexivity. Qed.

Lemma inst_response_type : exists fl, inst_T "Response" = Some (response_tag, fl).
Proof. apply type_has_tag. vm_compute. reflexivity. Qed.

Lemma inst_request_top : exists tag fl, request_top inst_T = Some (tag, fl).
Proof. exists request_tag. exact inst_request_type. Qed.

Lemma message_tags_ok : tag_ok request_tag /\ tag_ok response_tag.
Proof. split; apply tag_ok_b_sound; vm_compute; reflexivity. Qed.

(* [roundtrip_top] on the instance.  The type name is a variable: with "Request" in its place, comparing
   [inst_enc_top v] with [enc_top inst_T v] makes Coq look the type up in the table before it unfolds [inst_enc_top] *)
Lemma inst_roundtrip ty tag fl vs b tl :
  inst_T ty = Some (tag, fl) -> tag_ok tag -> wf inst_T (SStruct ty fl) VNil (VStruct ty vs) ->
  inst_enc_top (VStruct ty vs) = Some b ->
  dec_top ty tag fl {| rest := (b ++ tl)%list; last := 0 |}
  = Ok (VStruct ty (normalize_fields inst_T fl vs), blen b, {| rest := tl; last := 0 |}).
Proof. exact (roundtrip_top inst_T inst_codec_env_ok ty tag fl vs b tl). Qed.

(* the hypotheses of the round-trip theorem are satisfiable (non-vacuity) *)
Definition request_fl : flist :=
  Eval vm_compute in match inst_T "Request" with Some (_, fl) => fl | None => FNil end.

(* by conversion, which stops at the table entry; vm_compute would normalise the field list on both sides *)
Lemma request_fl_ok : inst_T "Request" = Some (request_tag, request_fl).
Proof. reflexivity. Qed.

(* a Create request: version 1.4, one batch item with unique id, operation Create whose payload is
   dispatched on the operation, a template attribute holding an attribute whose value is dispatched on
   its name (an Enumeration), an Integer attribute, and a Name structure attribute held through a pointer *)
Definition golden_request : val :=
  let sf := set_field inst_T in
  let zs := zero_struct inst_T in
  let attr n v := sf (sf (zs "Attribute") "Name" (VStr (bytes_of_string n))) "Value" v in
  let name := sf (sf (zs "Name") "Value" (VStr (bytes_of_string "key-1"))) "Type" (VEnum 1) in
  let ta := sf (zs "TemplateAttribute") "Attributes"
               (VList (VCons (attr "Cryptographic Algorithm" (VEnum 3))
                      (VCons (attr "Cryptographic Length" (VInt 256))
                      (VCons (attr "Name" (VPtr name)) VNone)))) in
  let payload := sf (sf (zs "CreateRequest") "ObjectType" (VEnum 2)) "TemplateAttribute" ta in
  let item := sf (sf (sf (zs "RequestBatchItem") "Operation" (VEnum 1)) "UniqueID" (VBytes (bytes_of_string "id-0")))
                 "RequestPayload" (VPtr payload) in
  let ver := sf (sf (zs "ProtocolVersion") "Major" (VInt 1)) "Minor" (VInt 4) in
  let hdr := sf (sf (sf (zs "RequestHeader") "Version" ver) "ClientCorrelationValue" (VStr (bytes_of_string "ccv")))
                "BatchCount" (VInt 1) in
  sf (sf (zs "Request") "Header" hdr) "BatchItems" (VList (VCons item VNone)).

Definition golden_fields : vlist :=
  Eval vm_compute in match golden_request with VStruct _ vs => vs | _ => VNone end.

Example golden_request_wf : wf inst_T (SStruct "Request" request_fl) VNil (VStruct "Request" golden_fields).
Proof. apply wf_b_wf. vm_compute. reflexivity. Qed.

Example golden_request_encodes : exists b, inst_enc_top (VStruct "Request" golden_fields) = Some b /\ (64 <= blen b)%N.
Proof. vm_compute. eexists. split; [reflexivity|discriminate]. Qed.

(* the theorem applied to it: non-vacuous *)
Example golden_request_roundtrips : exists b,
  inst_enc_top (VStruct "Request" golden_fields) = Some b /\
  dec_top "Request" request_tag request_fl {| rest := b; last := 0 |}
  = Ok (VStruct "Request" (normalize_fields inst_T request_fl golden_fields), blen b, {| rest := []; last := 0 |}).
Proof.
  destruct golden_request_encodes as [b [He _]]. exists b. split; [exact He|].
  pose proof (inst_roundtrip _ _ _ _ b [] request_fl_ok (proj1 message_tags_ok) golden_request_wf He) as H.
  rewrite app_nil_r in H. exact H.
Qed.

(* the computable hypothesis of C01 for a top-level value, for the correspondence driver *)
Definition inst_wf_b (v : val) : bool :=
  match v with
  | VStruct ty vs | VPtr (VStruct ty vs) =>
      match inst_T ty with
      | Some (tag, fl) => tag_ok_b tag && wf_b inst_T (SStruct ty fl) VNil (VStruct ty vs)
      | None => false
      end
  | _ => false
  end.

Require Import DenoteProofs.

Lemma inst_tags_not_any : forallb (fun p => negb (N.eqb (fst (snd p)) ANY_TAG)) the_type_table = true.
Proof. vm_compute. reflexivity. Qed.

(* for every struct type of the current tree and every byte string: Decode accepts iff the
   specification accepts, with the same value and the same byte count *)
Theorem inst_decoder_is_spec ty bs v n st' :
  inst_dec_top ty bs = Ok (v, n, st') <->
  inst_spec_decode ty bs = Some (v, n) /\ st' = {| rest := skipn (N.to_nat n) bs; last := 0%N |}.
Proof.
  unfold inst_dec_top, inst_spec_decode, inst_T. destruct (tassoc ty the_type_table) as [[tag fl]|] eqn:E.
  - apply decoder_is_spec. intros ->.
    pose proof (tassoc_forallb _ _ inst_tags_not_any _ _ E) as H.
    discriminate H.
  - split; [discriminate|]. intros [H _]. discriminate.
Qed.

(* non-vacuity, both directions: a RequestHeader that spells out a zero-valued optional field
   (Maximum Response Size = 0) is a valid encoding: accepted, denoting the same value as the canonical
   encoding without it; variants that are not well-formed are rejected *)
Definition hdr_int (t : N) (z : Z) : bytes := match enc_prim t KInt (VInt z) with Some b => b | None => [] end.
Definition hdr_version : bytes := wrap 4325481 (hdr_int 4325482 1 ++ hdr_int 4325483 4)%list.
Definition hdr_canonical : bytes := wrap 4325495 (hdr_version ++ hdr_int 4325389 1)%list.
Definition hdr_noncanonical : bytes := wrap 4325495 (hdr_version ++ hdr_int 4325456 0 ++ hdr_int 4325389 1)%list.
Definition hdr_no_batchcount : bytes := wrap 4325495 hdr_version.
Definition hdr_trailing : bytes := wrap 4325495 (hdr_version ++ hdr_int 4325389 1 ++ hdr_int 4325389 1)%list.
Definition hdr_understated : bytes := (header 4325495 tc_structure 32 ++ hdr_version ++ hdr_int 4325389 1)%list.
Definition hdr_bad_bool : bytes :=
  wrap 4325495 (hdr_version ++ header 4325383 6 8 ++ be 8 2 ++ hdr_int 4325389 1)%list.

Definition hdr_value : val :=
  Eval vm_compute in match inst_spec_decode "RequestHeader" hdr_canonical with Some (v, _) => v | None => VNil end.

Example noncanonical_accepted :
  inst_spec_decode "RequestHeader" hdr_noncanonical = Some (hdr_value, blen hdr_noncanonical) /\
  inst_spec_decode "RequestHeader" hdr_canonical = Some (hdr_value, blen hdr_canonical) /\
  inst_enc_top hdr_value = Some hdr_canonical /\ hdr_noncanonical <> hdr_canonical.
Proof. repeat apply conj; vm_compute; [reflexivity..|discriminate]. Qed.

Example malformed_rejected :
  inst_spec_decode "RequestHeader" hdr_no_batchcount = None /\     (* required field absent *)
  inst_spec_decode "RequestHeader" hdr_trailing = None /\          (* item left over in the structure *)
  inst_spec_decode "RequestHeader" hdr_understated = None /\       (* length understates the content *)
  inst_spec_decode "RequestHeader" hdr_bad_bool = None /\          (* Boolean that is neither 0 nor 1 *)
  inst_spec_decode "RequestHeader" (firstn 40 hdr_canonical) = None.  (* truncation *)
Proof. vm_compute. repeat split; reflexivity. Qed.
