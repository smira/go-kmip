(* BytesProofs.v - lemmas on big-endian numbers, padding, firstn/skipn; and two settings for every file that
   loads this one (below, and at the end) *)
From Coq Require Import List NArith ZArith Lia ZifyN.
Require Import Bytes.
Open Scope N_scope.

(* in force in every file that loads this one: [simpl] / [cbn] leave sums and powers of N as they are written
   (inversion and injection would otherwise turn [8 + len] into a match) *)
Arguments N.add : simpl never.
Arguments N.pow : simpl never.

Lemma b2n_lt b : b2n b < 256.
Proof. unfold b2n. pose proof (Byte.to_N_bounded b). lia. Qed.

Lemma b2n_n2b n : b2n (n2b n) = n mod 256.
Proof.
  unfold n2b, b2n. destruct (Byte.of_N (n mod 256)) eqn:E.
  - apply Byte.to_of_N in E. exact E.
  - apply Byte.of_N_None_iff in E. pose proof (N.mod_lt n 256). lia.
Qed.

Lemma n2b_b2n b : n2b (b2n b) = b.
Proof.
  unfold n2b, b2n. pose proof (Byte.to_N_bounded b).
  rewrite N.mod_small by lia. rewrite Byte.of_to_N. reflexivity.
Qed.

Lemma be_length k n : length (be k n) = k.
Proof. revert n; induction k; intros; simpl; auto. rewrite app_length, IHk. simpl. lia. Qed.

Lemma unbe_app l1 l2 acc : unbe (l1 ++ l2) acc = unbe l2 (unbe l1 acc).
Proof. revert acc; induction l1; intros; simpl; auto. Qed.

Lemma unbe_be k n acc : unbe (be k n) acc = acc * 256 ^ (N.of_nat k) + n mod 256 ^ (N.of_nat k).
Proof.
  revert n acc; induction k; intros n acc.
  - simpl. rewrite N.mod_1_r. lia.
  - cbn [be]. rewrite unbe_app, IHk. cbn [unbe]. rewrite b2n_n2b.
    rewrite Nat2N.inj_succ, N.pow_succ_r'.
    set (p := 256 ^ N.of_nat k). assert (p <> 0) by (unfold p; apply N.pow_nonzero; lia).
    rewrite (N.mod_mul_r n 256 p) by lia.
    ring.
Qed.

Lemma unbe_be0 k n : n < 256 ^ (N.of_nat k) -> unbe (be k n) 0 = n.
Proof. intros. rewrite unbe_be. rewrite N.mod_small by assumption. lia. Qed.

Lemma unbe_be0_mod k n : unbe (be k n) 0 = n mod 256 ^ (N.of_nat k).
Proof. rewrite unbe_be. lia. Qed.

Lemma unbe_bound l acc : unbe l acc < (acc + 1) * 256 ^ (N.of_nat (length l)).
Proof.
  revert acc; induction l as [|b l IH]; intros acc.
  - simpl. rewrite N.pow_0_r. lia.
  - cbn [unbe length]. rewrite Nat2N.inj_succ, N.pow_succ_r'.
    pose proof (IH (acc * 256 + b2n b)). pose proof (b2n_lt b).
    nia.
Qed.

Lemma unbe0_bound l : unbe l 0 < 256 ^ (N.of_nat (length l)).
Proof. pose proof (unbe_bound l 0). lia. Qed.

Lemma be_unbe l acc : be (length l) (unbe l acc) = l.
Proof.
  revert acc. induction l as [|b l IH] using rev_ind; intros acc.
  - reflexivity.
  - rewrite app_length, Nat.add_comm. cbn [length Nat.add be].
    rewrite unbe_app. cbn [unbe].
    assert (H1: (unbe l acc * 256 + b2n b) / 256 = unbe l acc).
    { pose proof (b2n_lt b). symmetry. apply (N.div_unique _ 256 _ (b2n b)); lia. }
    rewrite H1, IH.
    unfold n2b. pose proof (b2n_lt b).
    replace ((unbe l acc * 256 + b2n b) mod 256) with (b2n b).
    + unfold b2n. rewrite Byte.of_to_N. reflexivity.
    + apply (N.mod_unique _ 256 (unbe l acc)); lia.
Qed.

Lemma zeros_length n : length (zeros n) = n.
Proof. unfold zeros. apply repeat_length. Qed.

Lemma pad8_lt l : pad8 l < 8.
Proof. unfold pad8. apply N.mod_lt. lia. Qed.

Lemma padded_mod8 l : padded l mod 8 = 0.
Proof. unfold padded, pad8. lia. Qed.

Lemma padded_ge l : l <= padded l.
Proof. unfold padded. lia. Qed.

(* the length is a hypothesis: it usually comes from the wire *)
Lemma firstn_exact {A} n (a b : list A) : length a = n -> firstn n (a ++ b) = a.
Proof. intros <-. rewrite firstn_app, Nat.sub_diag, app_nil_r, firstn_all. reflexivity. Qed.

Lemma skipn_exact {A} n (a b : list A) : length a = n -> skipn n (a ++ b) = b.
Proof. intros <-. rewrite skipn_app, Nat.sub_diag, skipn_all. reflexivity. Qed.

(* ZifyN makes [lia] expand every [mod] and [/] it meets, in the goal and in the hypotheses, into the equations of
   Euclidean division: that is how the lemmas above are proved.  The files that load this one have [mod] in most contexts
   ([pad8], [padded], the decoder's 32-bit counter) and use the lemmas above, or name the fact about [mod] they
   need, where they need one: from here on [lia] leaves [mod] and [/] alone (ZifyN's treatment of [2 ^ n] stays). *)
Ltac Zify.zify_convert_to_euclidean_division_equations_flag ::= constr:(false).
