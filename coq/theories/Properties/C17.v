(* C17 - Serve survives transient Accept errors; stops only on permanent error / Shutdown.
   Statements only.  Accept.v is the model of the accept loop of Server.Serve, tied to /repo by
   feeding every sequence over {temporary error, connection, permanent error, shutdown} up to a
   length bound to the real Serve through a fault-injecting listener. *)
From Coq Require Import List NArith.
Require Import Accept AcceptProofs.
Import ListNotations.
Open Scope N_scope.

(* for EVERY finite sequence of accept results: every back-off is between 5 ms and 1 s *)
Theorem C17_backoff_bounded : forall rs, Forall sleep_ok (fst (serve rs)).
Proof. exact (fun rs => accept_loop_sleeps rs 0 O (or_introl eq_refl)). Qed.
Print Assumptions C17_backoff_bounded.

(* any number of temporary errors only sleeps (doubling from 5 ms, capped at 1 s) and the loop goes on *)
Theorem C17_survives_temporary_errors : forall k rest delay n,
  accept_loop (temps k ++ rest) delay n =
  (backoff k delay ++ fst (accept_loop rest (iter_delay k delay) n), snd (accept_loop rest (iter_delay k delay) n)).
Proof. exact temps_survived. Qed.
Print Assumptions C17_survives_temporary_errors.

Theorem C17_doubling_law : forall k, iter_delay (S k) 0 = N.min 1000 (5 * 2 ^ N.of_nat k).
Proof. exact backoff_from_reset. Qed.
Print Assumptions C17_doubling_law.

(* the connection that arrives after them is served, and the delay is reset *)
Theorem C17_next_connection_served : forall k rest delay n,
  accept_loop (temps k ++ AConn false :: rest) delay n =
  (backoff k delay ++ ServeConn n :: fst (accept_loop rest 0 (S n)), snd (accept_loop rest 0 (S n))).
Proof. exact conn_after_temps. Qed.
Print Assumptions C17_next_connection_served.

(* result: the error at the first permanent error before Shutdown; nil for ANY error (and a late
   connection, which is closed) once Shutdown has been signalled; still running otherwise *)
Theorem C17_result : forall rs delay n,
  match snd (accept_loop rs delay n) with
  | ARErr => exists pre rest, rs = pre ++ APerm false :: rest /\ Forall (fun r => r = ATemp false \/ r = AConn false) pre
  | ARNil => exists pre r rest, rs = pre ++ r :: rest /\ Forall (fun r => r = ATemp false \/ r = AConn false) pre /\
                               (r = ATemp true \/ r = APerm true \/ r = AConn true)
  | ARRunning => Forall (fun r => r = ATemp false \/ r = AConn false) rs
  end.
Proof. exact result_classification. Qed.
Print Assumptions C17_result.

Theorem C17_late_connection_closed : forall rest delay n, fst (accept_loop (AConn true :: rest) delay n) = [CloseLate n].
Proof. exact late_conn_closed. Qed.
Print Assumptions C17_late_connection_closed.

(* the three constants of the back-off are the ones Serve is written with (regenerated from server.go on every run):
   first delay 5 ms, doubling, cap 1 s *)
Require Import Generated.
Theorem C17_backoff_constants :
  gen_backoff = Some (5, 2, 1000)%N /\ forall d, next_delay d = next_delay_with 5 2 1000 d.
Proof. split; [reflexivity|intros d; reflexivity]. Qed.
Print Assumptions C17_backoff_constants.
