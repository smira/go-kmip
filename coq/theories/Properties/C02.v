(* C02 - Encode emits exactly the canonical KMIP TTLV bytes, a pure function of the value.
   [ser] / [to_tree] (TTLV.v) are the independent layout and presence rule
   sets; [enc_top] (Codec.v) is the model of encode.go, tied to /repo by the codec
   correspondence suite on every run. *)
From Coq Require Import List NArith.
Require Import Bytes Codec TTLV CodecProofs Generated Instance.
Import ListNotations.
Open Scope N_scope.

(* for EVERY value and type environment: the encoder either fails or emits the canonical
   serialisation of the tree the presence rules assign to the value *)
Theorem C02_enc_canonical : forall (T : tyenv) (v : val), enc_top T v = omap ser (to_tree_top T v).
Proof. exact enc_top_canonical. Qed.
Print Assumptions C02_enc_canonical.

(* layout: every serialised item is a multiple of 8 bytes long ... *)
Theorem C02_padded : (forall t, blen (ser t) mod 8 = 0) /\ (forall l, blen (ser_list l) mod 8 = 0).
Proof. exact ser_mod8. Qed.
Print Assumptions C02_padded.

(* ... and a structure's declared length is the total size of its serialised children *)
Theorem C02_structure_length : forall tag cs,
  exists hdr, ser (TStructure tag cs) = (hdr ++ ser_list cs)%list /\ hdr = (be 3 tag ++ be 1 1 ++ be 4 (blen (ser_list cs)))%list.
Proof. exact ser_structure_length. Qed.
Print Assumptions C02_structure_length.

(* history independence: the encoder model takes no state; the generated facts that make this a
   faithful model: no function of the package assigns a package-level variable *)
Theorem C02_no_package_state_written : gen_pkg_var_writes = [].
Proof. reflexivity. Qed.
Print Assumptions C02_no_package_state_written.

(* the item type codes of the model are the ones consts.go declares *)
Theorem C02_type_codes : type_codes_b = true.
Proof. vm_compute. reflexivity. Qed.
Print Assumptions C02_type_codes.

(* the fixed-length primitives: item type code and value length per kind, as the model has them, are the ones every read* /
   write* function of decode_core.go / encode_core.go is written with (regenerated from the source on every run), and the
   model's encoder writes exactly that header *)
Theorem C02_primitive_layout_matches_code : prim_layout_b = true.
Proof. vm_compute. reflexivity. Qed.
Print Assumptions C02_primitive_layout_matches_code.

Theorem C02_fixed_primitive_header : forall tag k v b l,
  enc_prim tag k v = Some b -> fixed_len k = Some l ->
  firstn 8 b = header tag (type_code k) l /\ blen b = 16%N.
Proof.
  intros tag k v b l H Hl.
  destruct k; cbn in Hl; try discriminate; injection Hl as <-;
    destruct v; cbn [enc_prim] in H; try discriminate; injection H as <-;
    (split; [reflexivity|]); unfold blen; rewrite ?app_length; cbn; reflexivity.
Qed.
Print Assumptions C02_fixed_primitive_header.
