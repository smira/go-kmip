(* C08 - Every batch item handled once with its own outcome; handlers cannot kill the server.
   Statements only. *)
From Coq Require Import List ZArith.
Require Import Session SessionProofs Instance InstanceProofs.

(* the handler invocations of a batch are exactly the items that have a registered handler, once
   each, in item order, with that item's decoded payload; the response items are, position by
   position, the outcome assigned to that item *)
Theorem C08_items : forall T K c rauth items script,
  let '(evs, ritems, _) := handle_items T K c rauth items script in
  evs = calls T c rauth items /\
  ritems = map (fun p => response_item T K (fst p) (snd p)) (combine items (outcomes T K c items script)).
Proof. exact handle_items_spec. Qed.
Print Assumptions C08_items.

(* outcome per behaviour: Success with the handler's payload; Operation Failed with the error's
   message and reason, General Failure when it has none or when the handler panicked *)
Theorem C08_outcome : forall K b,
  match b with
  | BSuccess p => outcome_of K b = OSuccess p
  | BFail m => outcome_of K b = OFailed m (k_general_failure K)
  | BFailReason m r => outcome_of K b = OFailed m r
  | BPanic shown => exists m, outcome_of K b = OFailed m (k_general_failure K)
  end.
Proof. exact outcome_of_classification. Qed.
Print Assumptions C08_outcome.

(* independence: when every item has a scripted handler, item i's outcome is behaviour i alone;
   items without a scripted handler get their outcome whatever the other items' handlers do *)
Theorem C08_independent : forall T K c items script,
  Forall (fun it => scripted T c it = true) items -> length script = length items ->
  outcomes T K c items script = map (outcome_of K) script.
Proof. exact outcomes_all_scripted. Qed.
Print Assumptions C08_independent.

Theorem C08_unscripted_independent : forall T K c items script script',
  Forall (fun it => scripted T c it = false) items -> outcomes T K c items script = outcomes T K c items script'.
Proof. exact outcomes_unscripted. Qed.
Print Assumptions C08_unscripted_independent.

(* whatever a handler returns (including values that cannot be encoded) the session model ends in
   Close or goes on: it never runs out of fuel, i.e. serve() terminates the iteration normally *)
Theorem C08_no_divergence : forall c t, trace_ok c t -> ~ In EOutOfFuel t.
Proof. exact trace_ok_no_fuel. Qed.
Print Assumptions C08_no_divergence.

Theorem C08_constants :
  k_success inst_K = 0%N /\ k_failed inst_K = 1%N /\ k_general_failure inst_K = 256%N /\
  k_not_supported inst_K = 5%N /\ k_invalid_message inst_K = 4%N /\ k_discover_versions inst_K = 30%N.
Proof. exact inst_K_values. Qed.
Print Assumptions C08_constants.
