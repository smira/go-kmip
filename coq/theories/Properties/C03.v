(* C03 - Decode is total and safe on arbitrary bytes. *)
From Coq Require Import List NArith.
Require Import Bytes Schema Codec CodecProofs.
Import ListNotations.

(* for EVERY schema, decoder state and byte string the decoder model terminates with a value or
   an error: the fuel of its only loop (slice elements) always suffices, because every decoded
   element takes at least 5 bytes from the reader.  Struct nesting is structural recursion. *)
Theorem C03_total : forall ty tag fl st, dec_top ty tag fl st <> OutOfFuel.
Proof. exact dec_top_total. Qed.
Print Assumptions C03_total.

Theorem C03_total_all :
  (forall s a st cur, dec_value s a st cur <> OutOfFuel) /\
  (forall fl i explen dd actual nsum cur, dec_fields fl i explen dd actual nsum cur <> OutOfFuel) /\
  (forall cs key a st, dec_cases cs key a st <> OutOfFuel).
Proof. exact dec_nofuel. Qed.
Print Assumptions C03_total_all.

(* progress: a successfully decoded item consumed at least its type and length bytes *)
Theorem C03_progress : forall s a st cur v nn st',
  dec_value s a st cur = Ok (v, nn, st') -> (length (rest st') + 5 <= length (rest st))%nat.
Proof. exact (proj1 dec_value_progress). Qed.
Print Assumptions C03_progress.

(* Delivery independence.  Readers.v is the decoder once more, reading through models of the Go
   reader objects it really uses - the transport handing out the data in an arbitrary scripted
   sequence of read sizes (empty reads, data together with the terminal error), bufio.Reader,
   io.LimitedReader, io.ReadFull, io.CopyN.  For EVERY script: *)
From Coq Require Import Lia PeanoNat.
Require Import Readers ReadersProofs.
Open Scope N_scope.

Definition transport (data : bytes) (sizes : list N) (weof : bool) (term : ioerr) : base :=
  {| b_data := data; b_sizes := sizes; b_weof := weof; b_term := term |}.

(* a transport that ends with io.EOF: Decode returns exactly what it returns on the bytes in memory -
   the same value, the same error class - whatever the fragmentation, through a buffered source
   (scanner = false: NewDecoder wraps it in a bufio.Reader) or an io.ByteScanner (scanner = true) *)
Theorem C03_delivery_independent : forall ty tag fl data sizes weof scanner x s',
  stall_free sizes ->          (* fewer than 100 consecutive empty reads: bufio's io.ErrNoProgress rule *)
  c_dec_top ty tag fl (new_decoder scanner (transport data sizes weof EOF)) = (x, s') ->
  x = strip (dec_top ty tag fl {| rest := data; last := 0 |}).
Proof.
  intros ty tag fl data sizes weof scanner x s' Hsf H.
  destruct (decode_fresh _ _ _ _ _ _ _ H Hsf) as [_ F _ _]. apply F. destruct scanner; reflexivity.
Qed.
Print Assumptions C03_delivery_independent.

(* the same for a caller-supplied bufio.Reader of any buffer size *)
Theorem C03_delivery_independent_bufio : forall ty tag fl data sizes weof size x s',
  0 < size -> stall_free sizes ->
  c_dec_top ty tag fl (new_decoder_bufio size (transport data sizes weof EOF)) = (x, s') ->
  x = strip (dec_top ty tag fl {| rest := data; last := 0 |}).
Proof.
  intros ty tag fl data sizes weof size x s' Hs Hsf H.
  apply decode_on_readers in H; [|apply new_decoder_bufio_wf; assumption]. destruct H as [_ F _ _]. apply F. reflexivity.
Qed.
Print Assumptions C03_delivery_independent_bufio.

(* a transport that ends in an I/O error at any offset: Decode still terminates (no loop runs out of
   fuel, bufio never gives up), and it returns nil only if the bytes that did arrive decode to that
   very value in memory - an I/O error is never turned into a success or into another value *)
Theorem C03_io_error_safe : forall ty tag fl data sizes weof scanner x s',
  stall_free sizes ->
  c_dec_top ty tag fl (new_decoder scanner (transport data sizes weof IOE)) = (x, s') ->
  x <> OutOfFuel /\
  (forall v n, x = Ok (v, n) -> exists st', dec_top ty tag fl {| rest := data; last := 0 |} = Ok (v, n, st')).
Proof.
  intros ty tag fl data sizes weof scanner x s' Hsf H.
  destruct (decode_fresh _ _ _ _ _ _ _ H Hsf) as [O _ U _]. split.
  - intros E. apply (dec_top_total _ _ _ _ (U E)).
  - intros v n E. destruct (O _ E) as (st' & Ef & _). exists st'. exact Ef.
Qed.
Print Assumptions C03_io_error_safe.

(* the hypothesis stall_free has instances: a script with empty reads, and 300 one-byte reads *)
Example C03_script_example : stall_free [3; 0; 0; 5; 1; 0; 7; 100] /\ stall_free (repeat 1 300).
Proof. split; apply stall_free_longest, Nat.ltb_lt; vm_compute; reflexivity. Qed.

(* reading from an unbuffered byte source (io.ByteScanner) Decode never consumes bytes beyond the outermost
   item's declared end - on EVERY outcome, for every input and every way the source hands out its bytes
   (schemas with at most 30 fields per structure; the regenerated schema is one: C05_instance) *)
Require Import LedgerProofs.
Theorem C03_no_overread : forall ty tag fl data sizes weof term x s',
  ((flist_len fl <=? NMAX) && small_fl fl)%bool = true -> stall_free sizes ->
  c_dec_top ty tag fl (new_decoder true (transport data sizes weof term)) = (x, s') ->
  ls (rd s') = [] /\
  blen data <= blen (b_data (bs (rd s'))) + 8 + (if 8 <=? blen data then unbe (firstn 4 (skipn 4 data)) 0 else 0).
Proof.
  intros ty tag fl data sizes weof term x s' Hsm Hsf H.
  apply (struct_no_overread ty fl (top_attr tag) VNone Hsm) in H; [|apply new_decoder_wf, Hsf].
  destruct H as (Sh & len & C1 & C2).
  pose proof (shape_no_layers _ _ Sh eq_refl) as Hls.
  split; [exact Hls|].
  assert (Hr': rden (rd s') = b_data (bs (rd s'))) by (unfold rden; rewrite Hls; reflexivity).
  assert (Hr: rden (rd (new_decoder true (transport data sizes weof term))) = data) by reflexivity.
  rewrite Hr, Hr' in C1, C2.
  destruct (N.leb_spec 8 (blen data)) as [H8|H8]; [apply C2; [exact H8|reflexivity]|lia].
Qed.
Print Assumptions C03_no_overread.

(* "reflection sets only values of the exact field / element type": for EVERY universe of Go struct declarations,
   the value decodeValue hands back for a descriptor is assignable to the field it is Set into (or the element type of
   the slice it is Appended to), so reflect.Value.Set / reflect.Append cannot panic on a type confusion *)
Require Import Fields Reflect.
Theorem C03_stores_are_type_exact : forall tagmap named structs f d vt,
  described tagmap named structs f d ->
  produced (fd_typ d) vt ->
  assignable named structs vt (field_elem named f) /\
  (fd_slice d = true -> slice_elem named (rf_type f) = Some (field_elem named f)).
Proof.
  intros tagmap named structs f d vt H Hp. split.
  - exact (decode_store_assignable tagmap named structs f d vt H Hp).
  - exact (decode_slice_target tagmap named structs f d H).
Qed.
Print Assumptions C03_stores_are_type_exact.
