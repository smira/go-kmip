(* C11 - Shutdown stops accepting, waits for every started session, honours the context.
   Shutdown.v is the interleaving semantics of Serve / Shutdown / waiter / sessions;
   [reachable true] = every state reachable under ANY schedule with any number of connections.
   Tied to /repo by forced schedules (gated listener / connections / context) on the real server. *)
From Coq Require Import List.
Require Import Shutdown ShutdownProofs.
Import ListNotations.

(* Shutdown returns nil only when no started session is still registered, running or closing - in
   every reachable state, hence also at every later moment: nothing starts after it has returned *)
Theorem C11_shutdown_waits : forall s, reachable true s -> s_pc s = SReturned RNil -> forall c, active (sget s c) = false.
Proof. exact shutdown_waits. Qed.
Print Assumptions C11_shutdown_waits.

(* ... and a session that has ended had its connection closed first *)
Theorem C11_ended_was_closed : forall fixed s c l s',
  step fixed s l = Some s' -> sget s' c = SEnded -> sget s c <> SEnded -> sget s c = SClosed.
Proof. exact ended_was_closed. Qed.
Print Assumptions C11_ended_was_closed.

(* the context's error only if the context has ended; nil only after the waiter signalled *)
Theorem C11_ctx : forall s, reachable true s ->
  (s_pc s = SReturned RCtx -> ctx_expired s = true) /\ (s_pc s = SReturned RNil -> w_pc s = WSignalled) /\ s_pc s <> SReturned RErr.
Proof. exact shutdown_ctx. Qed.
Print Assumptions C11_ctx.

(* Serve returns nil (never the listener's error) once Shutdown was signalled, and the connection it
   had accepted too late is closed, not served *)
Theorem C11_serve_nil : forall s r, reachable true s -> a_pc s = AReturned r -> r = RNil /\ done s = true.
Proof. exact serve_returns_nil. Qed.
Print Assumptions C11_serve_nil.

Theorem C11_late_connection_closed : forall s c s',
  reachable true s -> a_pc s = AHasConn c -> done s = true -> step true s LRegister = Some s' ->
  a_pc s' = AReturned RNil /\ sget s' c = SLateClosed.
Proof. exact late_connection_closed. Qed.
Print Assumptions C11_late_connection_closed.

(* no step of Shutdown, its waiter or the context touches a session: requests in flight are never aborted *)
Theorem C11_no_abort : forall fixed s l s', shutdown_label l = true -> step fixed s l = Some s' -> sess s' = sess s.
Proof. exact shutdown_never_aborts. Qed.
Print Assumptions C11_no_abort.

(* a request in flight (handler entered, response not yet written): under EVERY step of any thread - Shutdown
   called, listener closed, context expired, other sessions coming and going - the session stays in flight, and the
   only step that ends this state is its own handler returning, which writes the response on its connection *)
Theorem C11_inflight_request_completes : forall s l s' c,
  reachable true s -> step true s l = Some s' -> sget s c = SInFlight ->
  (sget s' c = SInFlight /\ answered s' = answered s)
  \/ (exists c', l = LReqEnd c' /\ c' <> c /\ sget s' c = SInFlight)
  \/ (l = LReqEnd c /\ sget s' c = SRunning /\ answered s' = (answered s ++ [c])%list).
Proof. intros s l s' c Hr. apply inflight_completes. apply reachable_inv. exact Hr. Qed.
Print Assumptions C11_inflight_request_completes.

(* and Shutdown / waiter / context steps never change which responses have been written *)
Theorem C11_no_abort_answers : forall fixed s l s', shutdown_label l = true -> step fixed s l = Some s' -> answered s' = answered s.
Proof. exact shutdown_keeps_answers. Qed.
Print Assumptions C11_no_abort_answers.

(* an in-flight session counts as started: Shutdown does not return nil while a handler is running *)
Theorem C11_inflight_is_waited_for : forall s c, reachable true s -> sget s c = SInFlight -> s_pc s <> SReturned RNil.
Proof.
  intros s c Hr Hc Hn. pose proof (shutdown_waits s Hr Hn c) as H. rewrite Hc in H. discriminate.
Qed.
Print Assumptions C11_inflight_is_waited_for.

(* regression witness: on the pinned tree (wg.Add not ordered with Shutdown) this schedule lets a session
   run after Shutdown returned nil; on the fixed tree the same schedule closes the late connection *)
Theorem C11_refuted_pinned :
  let s := run false pinned_schedule init in s_pc s = SReturned RNil /\ sget s 0 = SRunning.
Proof. exact pinned_refuted. Qed.
Print Assumptions C11_refuted_pinned.

Theorem C11_fixed_same_schedule :
  let s := run true pinned_schedule init in
  s_pc s = SReturned RNil /\ sget s 0 = SLateClosed /\ a_pc s = AReturned RNil.
Proof. exact fixed_same_schedule. Qed.
Print Assumptions C11_fixed_same_schedule.

(* Shutdown called BEFORE Serve has stored its listener (there is nothing to close yet): it returns nil at once; when
   Serve is called afterwards it accepts nobody: it closes its listener and returns nil.
   (The general theorems above cover this order too: [init] is the state before Serve is called.) *)
Theorem C11_serve_after_shutdown : forall s s', done s = true -> step true s LServeStart = Some s' ->
  a_pc s' = AReturned RNil /\ lis_closed s' = true /\ sess s' = sess s.
Proof.
  intros s s' Hd H. step_cases H. (* with done s = true only the branch that returns is left *) auto.
Qed.
Print Assumptions C11_serve_after_shutdown.

Example C11_shutdown_before_serve :
  let s := run true [LShCloseDone; LShCloseListener; LShStartWaiter; LWaitReturn; LWaitSignal; LShSelectDone;
                     LServeStart; LConnect] init in
  s_pc s = SReturned RNil /\ a_pc s = AReturned RNil /\ lis_closed s = true /\ sess s = [].
Proof. vm_compute. repeat split; reflexivity. Qed.
