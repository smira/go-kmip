(* C09 - No handler runs unauthenticated; auth context never leaks between requests. *)
From Coq Require Import List ZArith Bool.
Require Import Session SessionProofs.
Import ListNotations.

(* a failed session-auth callback: the whole trace is [SessAuth false; Close] - no handler, no response *)
Theorem C09_session_gate : forall T K c input script,
  c_tls c = None -> c_sess_auth c = Some false -> session T K c input script = [ESessAuth false; EClose CloseError].
Proof. intros T K c input script Ht H. pose proof (session_trace T K c input script Ht) as S. rewrite H in S. exact S. Qed.

(* on a TLS connection a failed handshake ends the session before any callback, handler or response *)
Theorem C09_handshake_gate : forall T K c input script,
  c_tls c = Some false ->
  session T K c input script = arm_r c ++ arm_w c ++ [EHandshake false; EClose CloseError].
Proof. intros T K c input script H. rewrite (session_tls T K c input script false H). reflexivity. Qed.
Print Assumptions C09_handshake_gate.
Print Assumptions C09_session_gate.

(* a request is processed iff it is cleared: consistent, and - if it carries credentials - a
   request-auth callback is configured and accepts them; otherwise no handler runs and no response
   is written for it: the events are at most the failed ReqAuth, then Close *)
Theorem C09_request_gate : forall T K c req script,
  let '(evs, oresp, script') := handle_batch T K c req script in
  if cleared T c req then
    evs = (if has_creds T req then [EReqAuth (req_auth_val T req) true] else []) ++ calls T c (rauth_of T c req) (req_items T req) /\
    oresp = Some (build_response T c req
              (map (fun p => response_item T K (fst p) (snd p))
                   (combine (req_items T req) (outcomes T K c (req_items T req) script))))
  else oresp = None /\ script' = script /\ (evs = [] \/ evs = [EReqAuth (req_auth_val T req) false]).
Proof. exact handle_batch_spec. Qed.
Print Assumptions C09_request_gate.

(* credentials without a configured callback, or rejected by it, are never cleared *)
Theorem C09_not_cleared : forall T c req,
  has_creds T req = true -> (c_req_auth c = false \/ req_auth_fn T (c_sid c) (req_auth_val T req) = None) -> cleared T c req = false.
Proof.
  intros T c req Hc [H|H]; unfold cleared; rewrite Hc, H; rewrite ?andb_false_r; reflexivity.
Qed.
Print Assumptions C09_not_cleared.

(* context: every handler invocation anywhere in the trace carries this connection's session id and
   session-auth value; within a batch it carries the request-auth value of THAT request - nil when the
   request has no credentials (calls ... (rauth_of req) in C09_request_gate) *)
Theorem C09_context : forall c t, trace_ok c t ->
  forall sid sa ra op p, In (ECall sid sa ra op p) t -> sid = c_sid c /\ sa = sauth_of c.
Proof. exact trace_ok_calls. Qed.
Print Assumptions C09_context.

Theorem C09_rauth_nil_without_credentials : forall T c req, has_creds T req = false -> rauth_of T c req = None.
Proof. intros T c req H. unfold rauth_of. rewrite H. reflexivity. Qed.
Print Assumptions C09_rauth_nil_without_credentials.

(* "the session ID established for its own connection": for EVERY sequence of Accept results, the connections handed to
   session goroutines get the ids 1, 2, 3, ... in accept order (temporary errors and back-offs in between do not consume
   or repeat a number), so no two connections of a server ever share one *)
Require Import Accept AcceptProofs.
Theorem C09_session_ids_distinct : forall rs,
  NoDup (map session_id (served (fst (serve rs)))) /\
  map session_id (served (fst (serve rs))) = map (fun k => N.of_nat k) (seq 1 (length (served (fst (serve rs))))).
Proof. intros rs. split; [apply session_ids_distinct|apply session_ids_consecutive]. Qed.
Print Assumptions C09_session_ids_distinct.
