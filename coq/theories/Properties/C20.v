(* C20 - Built-in Discover Versions returns exactly the supported subset of the offer.
   Discover.v models handleDiscoverVersions and Serve's defaulting with Go slices
   made explicit (backing arrays in a heap); Session.v's built-in handler computes the same list. *)
From Coq Require Import List ZArith.
Require Import Discover DiscoverProofs Generated Instance.
Import ListNotations.

(* empty offer: the complete supported list in the server's order *)
Theorem C20_empty_offer : forall sup, discover_spec sup [] = sup.
Proof. exact discover_spec_empty. Qed.
Print Assumptions C20_empty_offer.

(* non-empty offer: exactly the offered versions the server supports, in the offer's order and multiplicity *)
Theorem C20_subset : forall sup offer, offer <> [] ->
  discover_spec sup offer = filter (fun o => existsb (pv_eqb o) sup) offer.
Proof. exact discover_spec_filter. Qed.
Print Assumptions C20_subset.

Theorem C20_none_invented_none_omitted : forall sup offer v, offer <> [] ->
  (In v (discover_spec sup offer) <-> In v offer /\ In v sup).
Proof. exact discover_spec_sound. Qed.
Print Assumptions C20_none_invented_none_omitted.

(* for ANY heap: the reply holds exactly that list, its backing array (if any) is allocated by this
   call, and every array that existed before - the configuration's and DefaultSupportedVersions' - is
   unchanged *)
Theorem C20_no_alias : forall h sup offer,
  let '(h', res) := handle_discover h sup offer in
  elems h' res = discover_spec (elems h sup) offer /\
  fresh_from (length h) h' res /\
  (forall a, (a < length h)%nat -> arr h' a = arr h a).
Proof. exact handle_discover_correct. Qed.
Print Assumptions C20_no_alias.

(* Serve: an empty configuration is replaced by a fresh copy of the default list, a non-empty one is kept *)
Theorem C20_defaulting : forall h configured dflt,
  let '(h', s) := serve_defaults h configured dflt in
  (s_len configured = 0%nat -> elems h' s = elems h dflt /\ fresh_from (length h) h' s) /\
  (s_len configured <> 0%nat -> h' = h /\ s = configured) /\
  (forall a, (a < length h)%nat -> arr h' a = arr h a).
Proof. exact serve_defaults_correct. Qed.
Print Assumptions C20_defaulting.

(* the default list of this tree (regenerated): 1.4, 1.3, 1.2, 1.1 *)
Theorem C20_default : gen_default_versions_found = true /\ default_versions = [(1, 4); (1, 3); (1, 2); (1, 1)]%Z.
Proof. split; reflexivity. Qed.
Print Assumptions C20_default.

(* the session model's built-in handler returns discover_spec *)
Theorem C20_session_handler : forall sup offer, Session.discover sup offer = discover_spec sup offer.
Proof. exact session_discover_spec. Qed.
Print Assumptions C20_session_handler.

(* several Discover Versions items in ONE request: read after the last item has been handled, every reply still holds
   exactly the answer to its own offer, the configuration is untouched, and two non-empty replies never share memory *)
Theorem C20_batch_replies_independent : forall offers h sup,
  (s_arr sup < length h)%nat ->
  let '(h', ss) := discover_batch h sup offers in
  map (elems h') ss = map (discover_spec (elems h sup)) offers /\
  (forall a, (a < length h)%nat -> arr h' a = arr h a) /\
  (forall i j si sj, nth_error ss i = Some si -> nth_error ss j = Some sj -> i <> j ->
     s_cap si = 0%nat \/ s_cap sj = 0%nat \/ s_arr si <> s_arr sj).
Proof.
  intros offers h sup Hs.
  pose proof (discover_batch_correct offers h sup Hs) as C. pose proof (discover_batch_disjoint offers h sup Hs) as D.
  destruct (discover_batch h sup offers) as [h' ss]. destruct C as (E & X & _). auto using extends_arr.
Qed.
Print Assumptions C20_batch_replies_independent.
