(* C16 - Default TLS configuration enforces mutual authentication and TLS >= 1.2.
   gen_DefaultServerTLSConfig / gen_DefaultClientTLSConfig are the assignments of
   tls.go, regenerated on every run; TLS.v's server_handshake_ok / client_handshake_ok specify
   crypto/tls (validated against the real library over the whole peer space by the tls suite). *)
From Coq Require Import NArith Bool.
Require Import Generated TLS.
Open Scope N_scope.

Definition default_server_cfg : option tlscfg := apply_assignments gen_DefaultServerTLSConfig zero_server_cfg.
Definition default_client_cfg : option tlscfg := apply_assignments gen_DefaultClientTLSConfig zero_client_cfg.

(* what the functions of this tree assign *)
Theorem C16_defaults :
  gen_DefaultServerTLSConfig_found = true /\ gen_DefaultClientTLSConfig_found = true /\
  default_server_cfg = Some {| min_version := 771; cauth := RequireAndVerifyClientCert; insecure_skip_verify := false |} /\
  default_client_cfg = Some {| min_version := 771; cauth := NoClientCert; insecure_skip_verify := false |}.
Proof. repeat split; reflexivity. Qed.
Print Assumptions C16_defaults.

(* whatever the configuration held before (weaker MinVersion / ClientAuth included), after the call the
   fields that decide who is cleared are the defaults: the assignments are unconditional *)
Theorem C16_overwrites_weaker_settings : forall c0 c,
  apply_assignments gen_DefaultServerTLSConfig c0 = Some c -> min_version c = 771 /\ cauth c = RequireAndVerifyClientCert.
Proof. intros c0 c H. injection H as <-. split; reflexivity. Qed.
Print Assumptions C16_overwrites_weaker_settings.

Theorem C16_client_overwrites_weaker_version : forall c0 c,
  apply_assignments gen_DefaultClientTLSConfig c0 = Some c -> min_version c = 771 /\ insecure_skip_verify c = insecure_skip_verify c0.
Proof. intros c0 c H. injection H as <-. split; reflexivity. Qed.
Print Assumptions C16_client_overwrites_weaker_version.

(* what both roles ask of every peer, whatever the third test b is *)
Lemma handshake_common : forall m p b,
  negb (plaintext p) && (m <=? N.min (max_version p) 772) && b = true ->
  plaintext p = false /\ m <= max_version p /\ b = true.
Proof.
  intros m p b H. apply andb_true_iff in H as [H Hb]. apply andb_true_iff in H as [Hp Hm].
  apply negb_true_iff in Hp. apply N.leb_le, N.min_glb_l in Hm. auto.
Qed.

(* server: for EVERY peer, a completed handshake means TLS >= 1.2 and a certificate that verifies
   against the client-CA pool; nothing else gets as far as the session (callbacks, handlers, responses) *)
Theorem C16_server : forall c p, default_server_cfg = Some c -> server_handshake_ok c p = true ->
  plaintext p = false /\ 771 <= max_version p /\ cert_verifies (cert p) = true.
Proof. intros c p Hc H. injection Hc as <-. exact (handshake_common 771 p _ H). Qed.
Print Assumptions C16_server.

(* client: a completed handshake means TLS >= 1.2 and a server certificate that verifies against the
   root pool and matches the host name; no request is sent otherwise (Connect fails before Send) *)
Theorem C16_client : forall c p, default_client_cfg = Some c -> client_handshake_ok c p = true ->
  plaintext p = false /\ 771 <= max_version p /\ cert p = CertValid.
Proof.
  intros c p Hc H. injection Hc as <-. apply (handshake_common 771) in H as (Hp & Hv & Hk).
  repeat split; try assumption. destruct (cert p); (reflexivity || discriminate).
Qed.
Print Assumptions C16_client.

(* one *tls.Config prepared for BOTH roles (a process that is a KMIP server and a client of another one): the client helper
   leaves the server's client-authentication policy alone and the server helper leaves the client's verification switch
   alone, so in either order the result keeps both guarantees *)
Theorem C16_helpers_do_not_undo_each_other : forall c0 c,
  (apply_assignments gen_DefaultClientTLSConfig c0 = Some c -> cauth c = cauth c0 /\ 771 <= min_version c) /\
  (apply_assignments gen_DefaultServerTLSConfig c0 = Some c -> insecure_skip_verify c = insecure_skip_verify c0).
Proof.
  intros c0 c. split; intros H; cbn in H; injection H as <-; cbn; [split; [reflexivity|discriminate]|reflexivity].
Qed.
Print Assumptions C16_helpers_do_not_undo_each_other.

Theorem C16_shared_config : forall c0 s c p,
  apply_assignments gen_DefaultServerTLSConfig c0 = Some s ->
  apply_assignments gen_DefaultClientTLSConfig s = Some c ->
  server_handshake_ok c p = true ->
  plaintext p = false /\ 771 <= max_version p /\ cert_verifies (cert p) = true.
Proof.
  intros c0 s c p Hs Hc. injection Hs as <-. injection Hc as <-.
  exact (C16_server _ p eq_refl).
Qed.
Print Assumptions C16_shared_config.
