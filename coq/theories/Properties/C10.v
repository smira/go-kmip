(* C10 - Malformed or hostile byte streams only cost the sender its own connection. *)
From Coq Require Import List ZArith.
Require Import Bytes Codec Session SessionProofs.
Import ListNotations.

(* for EVERY byte stream: handler invocations and responses occur only inside iterations whose
   message decoded completely (dec_top = Ok) and was cleared (count consistent, not asynchronous,
   credentials accepted); the first message that is not is followed by Close and nothing else *)
Theorem C10_step : forall T K c st script,
  let '(evs, k) := request_step T K c st script in step_result T K c st script evs k.
Proof. exact request_step_spec. Qed.
Print Assumptions C10_step.

Theorem C10_trace : forall T K c input script,
  c_tls c = None ->
  match c_sess_auth c with
  | Some false => session T K c input script = [ESessAuth false; EClose CloseError]
  | Some true => exists t, session T K c input script = ESessAuth true :: t /\ trace_ok c t
  | None => trace_ok c (session T K c input script)
  end.
Proof. exact session_trace. Qed.
Print Assumptions C10_trace.

(* the session model terminates on every input (no crash / no divergence event) *)
Theorem C10_terminates : forall c t, trace_ok c t -> ~ In EOutOfFuel t.
Proof. exact trace_ok_no_fuel. Qed.
Print Assumptions C10_terminates.

(* sessions are a function of their own connection only: the model of a server with several
   connections is the map of [session] over them, so one connection's bytes cannot appear in
   another's trace *)
Definition server_run T K (conns : list (cfg * bytes * list behaviour)) : list (list event) :=
  map (fun x => session T K (fst (fst x)) (snd (fst x)) (snd x)) conns.
Theorem C10_isolation : forall T K conns i c inp sc,
  nth_error conns i = Some (c, inp, sc) -> nth_error (server_run T K conns) i = Some (session T K c inp sc).
Proof. intros T K conns i c inp sc H. unfold server_run. rewrite nth_error_map, H. reflexivity. Qed.
Print Assumptions C10_isolation.

(* the byte stream as the transport really delivers it (reader objects of C03): any script of read sizes, ending
   with io.EOF or FAILING with an I/O error at any offset (reset, deadline) *)
Require Import Readers ReadersProofs SessionReaders.

(* the peer closes: the trace is the one computed on the flat stream (all statements above apply to it) *)
Theorem C10_any_fragmentation : forall T K c input sizes weof script,
  stall_free sizes ->
  c_session_body T K c input sizes weof script = session_body T K c input script.
Proof. exact session_fragmentation_independent. Qed.
Print Assumptions C10_any_fragmentation.

(* the connection fails instead: what can be observed of the session - request authentication, handler invocations,
   responses - is a prefix of what happens on the bytes that were delivered; a failure never makes the server run a
   handler or send a response it would not have run or sent on those bytes *)
Theorem C10_failing_connection : forall T K fuel c conn script,
  transport_ok conn ->
  prefix (filter visible (c_serve_loop T K fuel c (new_decoder false conn) script))
         (filter visible (serve_loop T K fuel c {| rest := b_data conn; last := 0 |} script)).
Proof. exact failing_connection_prefix. Qed.
Print Assumptions C10_failing_connection.

(* the hypothesis is satisfiable: a connection that hands out its bytes in reads of 1, 0, 3 and 2 bytes and then fails *)
Example C10_failing_transport_example :
  transport_ok {| b_data := [Byte.x42; Byte.x00; Byte.x78; Byte.x01; Byte.x00; Byte.x00]; b_sizes := [1; 0; 3; 2]%N; b_weof := true; b_term := IOE |}.
Proof. cbn. auto with arith. Qed.
