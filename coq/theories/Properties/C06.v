(* C06 - Message framing on a stream is independent of how the transport fragments bytes. *)
From Coq Require Import List ZArith.
Require Import Schema Codec CodecProofs CodecRT Instance InstanceProofs.
Open Scope N_scope.

(* several messages written back to back on one stream: successive Decode calls on ONE decoder state
   return them one by one, in order, (normalised,) and then report io.EOF exactly at the clean end -
   for any number of messages of any size *)
Theorem C06_stream : forall T, env_ok T -> forall ty tag fl, T ty = Some (tag, fl) -> tag_ok tag ->
  forall ms bs fuel,
    Forall2 (fun vs b => wf T (SStruct ty fl) VNil (VStruct ty vs) /\ enc_top T (VStruct ty vs) = Some b) ms bs ->
    (length ms < fuel)%nat ->
    dec_stream fuel ty tag fl {| rest := concat bs; last := 0 |}
    = (map (fun vs => VStruct ty (normalize_fields T fl vs)) ms, SEOF).
Proof. exact stream_roundtrip. Qed.
Print Assumptions C06_stream.

(* each successful Decode consumes exactly its own message - 8 bytes plus the declared length - and
   leaves the decoder without look-ahead, whatever follows: the stream stays in sync *)
Theorem C06_exact_consumption : forall T, env_ok T ->
  forall ty tag fl vs b tl,
    T ty = Some (tag, fl) -> tag_ok tag -> wf T (SStruct ty fl) VNil (VStruct ty vs) ->
    enc_top T (VStruct ty vs) = Some b ->
    dec_top ty tag fl {| rest := (b ++ tl)%list; last := 0 |}
    = Ok (VStruct ty (normalize_fields T fl vs), blen b, {| rest := tl; last := 0 |}).
Proof. exact roundtrip_top. Qed.
Print Assumptions C06_exact_consumption.

Theorem C06_message_length : forall tag body, blen (wrap tag body) = 8 + blen body.
Proof. exact wrap_blen. Qed.
Print Assumptions C06_message_length.

(* the schema of the current tree satisfies the hypothesis *)
Theorem C06_instance : env_ok inst_T.
Proof. exact inst_codec_env_ok. Qed.
Print Assumptions C06_instance.

(* a decoded item always moves the stream forward *)
Theorem C06_forward_progress : forall s a st cur v nn st',
  dec_value s a st cur = Ok (v, nn, st') -> (length (rest st') + 5 <= length (rest st))%nat.
Proof. exact (proj1 dec_value_progress). Qed.
Print Assumptions C06_forward_progress.

(* The same on the reader objects (Readers.v): however the transport fragments the bytes. *)
Require Import Readers ReadersProofs.

(* several messages back to back, delivered by ANY script of read sizes (single bytes, any split,
   zero-length reads, last data together with io.EOF), through a buffered source or an io.ByteScanner:
   successive Decode calls on one Decoder return them one by one, in order, and then io.EOF *)
Theorem C06_chunking : forall T, env_ok T -> forall ty tag fl, T ty = Some (tag, fl) -> tag_ok tag ->
  forall ms bs fuel sizes weof scanner,
    Forall2 (fun vs b => wf T (SStruct ty fl) VNil (VStruct ty vs) /\ enc_top T (VStruct ty vs) = Some b) ms bs ->
    (length ms < fuel)%nat -> stall_free sizes ->
    fst (c_dec_stream fuel ty tag fl
           (new_decoder scanner {| b_data := concat bs; b_sizes := sizes; b_weof := weof; b_term := EOF |}))
    = (map (fun vs => VStruct ty (normalize_fields T fl vs)) ms, SEOF).
Proof.
  intros T HT ty tag fl Hty Htag ms bs fuel sizes weof scanner Hms Hfuel Hsf.
  set (b := {| b_data := concat bs; b_sizes := sizes; b_weof := weof; b_term := EOF |}).
  destruct (c_dec_stream fuel ty tag fl (new_decoder scanner b)) as [[vs e] s1] eqn:E.
  assert (Hterm: b_term (Readers.bs (rd (new_decoder scanner b))) = EOF) by (destruct scanner; reflexivity).
  pose proof (stream_on_readers ty tag fl fuel _ _ _ _ (new_decoder_wf _ b Hsf) Hterm E) as R.
  rewrite new_decoder_flat in R. cbn [b_data b] in R.
  rewrite (stream_roundtrip T HT ty tag fl Hty Htag ms bs fuel Hms Hfuel) in R. injection R as <- <-.
  reflexivity.
Qed.
Print Assumptions C06_chunking.

(* from an io.ByteScanner (no buffering) a successful Decode leaves exactly the bytes after its own
   message in the source: 8 bytes plus the declared length were consumed, nothing more *)
Theorem C06_unbuffered_exact_consumption : forall T, env_ok T ->
  forall ty tag fl vs b tl sizes weof x s',
    T ty = Some (tag, fl) -> tag_ok tag -> wf T (SStruct ty fl) VNil (VStruct ty vs) ->
    enc_top T (VStruct ty vs) = Some b -> stall_free sizes ->
    c_dec_top ty tag fl (new_decoder true {| b_data := (b ++ tl)%list; b_sizes := sizes; b_weof := weof; b_term := EOF |}) = (x, s') ->
    x = Ok (VStruct ty (normalize_fields T fl vs), blen b) /\ b_data (Readers.bs (rd s')) = tl /\ clast s' = 0.
Proof.
  intros T HT ty tag fl vs b tl sizes weof x s' Hty Htag Hwf Henc Hsf H.
  set (b0 := {| b_data := (b ++ tl)%list; b_sizes := sizes; b_weof := weof; b_term := EOF |}) in *.
  destruct (decode_fresh _ _ _ _ _ _ _ H Hsf) as [O F _ _]. cbn [b_data b0] in O, F.
  rewrite (roundtrip_top T HT ty tag fl vs b tl Hty Htag Hwf Henc) in O, F.
  specialize (F eq_refl). split; [exact F|].
  destruct (O _ F) as (st' & Est & Efl & _ & Sh). injection Est as <-.
  pose proof (shape_no_layers _ _ Sh eq_refl) as El.
  unfold flat, rden in Efl. rewrite El in Efl. injection Efl as -> ->. split; reflexivity.
Qed.
Print Assumptions C06_unbuffered_exact_consumption.
