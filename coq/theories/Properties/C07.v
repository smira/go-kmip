(* C07 - Server answers every request exactly once, in order, or closes the connection.
   Statements only.  Session.v is the model of serve()/handleBatch, tied to /repo by the session
   correspondence suite; Instance.v instantiates it with the regenerated schema and constants. *)
From Coq Require Import String.
From Coq Require Import List.
Require Import Codec Session SessionProofs Instance InstanceProofs.
Import ListNotations.

(* for EVERY configuration, input byte stream and script of handler behaviours, the trace has the
   shape  (read-arm? request-events write-arm? Wrote)*  read-arm? events Close : each processed
   request is followed by exactly one response before anything of the next request happens, and a
   request that gets no response is followed by Close and nothing else *)
Theorem C07_trace_shape : forall T K c input script,
  c_tls c = None ->
  match c_sess_auth c with
  | Some false => session T K c input script = [ESessAuth false; EClose CloseError]
  | Some true => exists t, session T K c input script = ESessAuth true :: t /\ trace_ok c t
  | None => trace_ok c (session T K c input script)
  end.
Proof. exact session_trace. Qed.
Print Assumptions C07_trace_shape.

(* one iteration: the request decoded from the persistent decoder state is the one answered; the
   response written is the encoding of build_response for THAT request; the next iteration continues
   from the decoder state left behind, so the k-th response answers the k-th request *)
Theorem C07_step : forall T K c st script,
  let '(evs, k) := request_step T K c st script in step_result T K c st script evs k.
Proof. exact request_step_spec. Qed.
Print Assumptions C07_step.

(* what the response echoes: version, correlation value, batch count, the server's time, and one
   item per request item in order with the same operation and unique batch item id *)
Theorem C07_response_answers : forall c req ritems,
  let resp := build_response inst_T c req ritems in
  let ph := get_field inst_T resp "Header" in
  get_field inst_T ph "Version" = get_field inst_T (req_header inst_T req) "Version" /\
  get_field inst_T ph "ClientCorrelationValue" = get_field inst_T (req_header inst_T req) "ClientCorrelationValue" /\
  get_field inst_T ph "BatchCount" = get_field inst_T (req_header inst_T req) "BatchCount" /\
  get_field inst_T ph "TimeStamp" = VTime (c_now c) /\
  get_field inst_T resp "BatchItems" = VList (vl_of_list ritems).
Proof. exact (fun c req ritems => response_answers inst_T c req ritems inst_response_fields). Qed.
Print Assumptions C07_response_answers.

Theorem C07_one_item_per_request_item : forall T K c rauth items script,
  length (snd (fst (handle_items T K c rauth items script))) = length items.
Proof. exact handle_items_length. Qed.
Print Assumptions C07_one_item_per_request_item.

Theorem C07_item_echo : forall item o,
  let r := response_item inst_T inst_K item o in
  get_field inst_T r "Operation" = get_field inst_T item "Operation" /\
  get_field inst_T r "UniqueID" = get_field inst_T item "UniqueID" /\
  match o with
  | OSuccess p => get_field inst_T r "ResultStatus" = VEnum (k_success inst_K) /\ get_field inst_T r "ResponsePayload" = p
  | OFailed m reason =>
      get_field inst_T r "ResultStatus" = VEnum (k_failed inst_K) /\ get_field inst_T r "ResultMessage" = VStr m /\
      get_field inst_T r "ResultReason" = VEnum reason
  end.
Proof. exact (fun item o => response_item_reports inst_T inst_K item o inst_response_fields). Qed.
Print Assumptions C07_item_echo.

(* "one at a time or pipelined", and however the transport fragments them: the server's persistent Decoder on its
   bufio.Reader over a connection that hands out the peer's bytes in ANY script of read sizes (one request per read,
   several requests in one read, single bytes, a request split anywhere; fewer than 100 consecutive empty reads)
   produces exactly the trace computed on the flat byte stream - which the theorems above speak about *)
Require Import ReadersProofs SessionReaders.
Theorem C07_fragmentation_independent : forall T K c input sizes weof script,
  stall_free sizes ->
  c_session_body T K c input sizes weof script = session_body T K c input script.
Proof. exact session_fragmentation_independent. Qed.
Print Assumptions C07_fragmentation_independent.
