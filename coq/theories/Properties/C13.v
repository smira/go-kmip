(* C13 - Encode/Decode never panic on the Go value given; a failed Encode writes nothing.
   The model is a total function: "never panics" is the correspondence
   (the harness observes panics of the implementation); what is proved here is the decision
   table - which values are errors - and that an error leaves the destination untouched. *)
From Coq Require Import String.
From Coq Require Import List.
Require Import Schema Codec.
Import ListNotations.

Theorem C13_failed_writes_nothing : forall T w v, snd (enc_to T w v) = false -> fst (enc_to T w v) = w.
Proof. intros T w v. unfold enc_to. destruct (enc_top T v); [discriminate|reflexivity]. Qed.
Print Assumptions C13_failed_writes_nothing.

Theorem C13_success_appends_message : forall T w v, snd (enc_to T w v) = true ->
  exists b, enc_top T v = Some b /\ fst (enc_to T w v) = (w ++ b)%list.
Proof. intros T w v. unfold enc_to. destruct (enc_top T v); [eauto|discriminate]. Qed.
Print Assumptions C13_success_appends_message.

(* top level: nil, typed nil, scalars, maps, slices, pointer-to-pointer are errors *)
Theorem C13_top_level_rejects :
  forall T, enc_top T VNil = None /\ (forall w, enc_top T (VBad w) = None) /\
            (forall v, enc_top T (VPtr (VPtr v)) = None) /\ (forall z, enc_top T (VInt z) = None) /\
            (forall vs, enc_top T (VList vs) = None) /\
            (forall ty vs, T ty = None -> enc_top T (VStruct ty vs) = None).
Proof.
  intros T. repeat split; try reflexivity.
  intros ty vs H. cbn. rewrite H. reflexivity.
Qed.
Print Assumptions C13_top_level_rejects.

(* interface-typed positions: nil, unsupported kinds, pointer-to-pointer, structs with bad
   annotations (no descriptor) are errors, whatever the dispatch table says *)
Theorem C13_dynamic_rejects :
  forall T h ki cs tag,
    enc_value T (SDyn h ki cs) tag VNil = None /\
    (forall w, enc_value T (SDyn h ki cs) tag (VBad w) = None) /\
    (forall w, enc_value T (SDyn h ki cs) tag (VPtr (VBad w)) = None) /\
    (forall v, enc_value T (SDyn h ki cs) tag (VPtr (VPtr v)) = None) /\
    (forall vs, enc_value T (SDyn h ki cs) tag (VList vs) = None) /\
    (forall ty vs, T ty = None -> enc_value T (SDyn h ki cs) tag (VStruct ty vs) = None).
Proof.
  intros. repeat split; try reflexivity.
  intros ty vs H. cbn. rewrite H. reflexivity.
Qed.
Print Assumptions C13_dynamic_rejects.

(* the reflective calls: for EVERY universe of Go struct declarations (user-defined types included) *)
Require Import Fields Reflect.

(* whatever getStructDesc (Fields.v) accepts: every field descriptor belongs to an exported, annotated field whose
   tag name resolves, and was derived from that field's (element) type by guessType *)
Theorem C13_descriptor_well_formed : forall tagmap named structs ty sd,
  get_struct_desc tagmap named structs ty = ROk sd ->
  Forall (fun d => exists f, described tagmap named structs f d) (sd_fields sd).
Proof. exact get_struct_desc_described. Qed.
Print Assumptions C13_descriptor_well_formed.

(* Encode: the accessor applied to a field / element - rv.Int, Uint, Bool, String, Bytes, .(time.Time), .(time.Duration) -
   fits its Kind / exact type, so it cannot panic; a STRUCTURE descriptor sits on a struct type or an interface *)
Theorem C13_encode_accessors_fit : forall tagmap named structs f d,
  described tagmap named structs f d ->
  (forall k, fd_typ d = FPrim k -> accessor_fits k (field_elem named f)) /\
  match fd_typ d with
  | FStruct n => is_struct structs (field_elem named f) n
  | FDyn => is_iface named structs (field_elem named f)
  | FPrim _ => True
  end.
Proof.
  intros tagmap named structs f d H. split.
  - intros k Hk. exact (encode_accessor_fits tagmap named structs f d k H Hk).
  - exact (encode_structure_target tagmap named structs f d H).
Qed.
Print Assumptions C13_encode_accessors_fit.

(* a field of an unsupported type (any other kind, a slice of slices, a user-defined type of a core kind ...) never gets
   a descriptor: getStructDesc answers with an error for the whole structure type *)
Theorem C13_unsupported_field_types_rejected : forall tagmap named structs f d,
  described tagmap named structs f d ->
  match field_elem named f with TOther _ | TSliceOf _ | TTagTy => False | _ => True end.
Proof. exact unsupported_field_rejects. Qed.
Print Assumptions C13_unsupported_field_types_rejected.

(* the hypothesis is satisfiable: the library's own Name structure gets a descriptor with its two fields *)
Require Import Generated Instance.
Example C13_descriptor_example :
  match get_struct_desc the_tagmap gen_named gen_structs "Name" with
  | ROk sd => map fd_typ (sd_fields sd) = [FPrim KStr; FPrim KEnum]
  | RErr _ => False
  end.
Proof. vm_compute. reflexivity. Qed.

(* a nested structure type without a descriptor is elaborated as a position no value can occupy (Fields.elab_struct): whatever
   arrives there fails to decode, and a structure value of a type without a descriptor - or nil - fails to encode *)
Theorem C13_position_without_descriptor : forall T h ki a st cur tag,
  dec_value (SDyn h ki DNil) a st cur = Err /\
  (forall ty vs, T ty = None -> enc_value T (SDyn h ki DNil) tag (VStruct ty vs) = None) /\
  enc_value T (SDyn h ki DNil) tag VNil = None.
Proof. intros. split; [reflexivity|]. split; apply C13_dynamic_rejects. Qed.
Print Assumptions C13_position_without_descriptor.
