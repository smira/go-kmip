(* C14 - Client returns a payload only for a matching successful reply, and never panics.
   Client.v models Client.Send / DiscoverVersions; tied to /repo by running the
   real Client against a scripted TLS peer and the extracted model on the same replies. *)
From Coq Require Import String.
From Coq Require Import List ZArith.
Require Import Codec Session Client ClientProofs.
Import ListNotations.

(* for EVERY reply byte string: a payload is returned only if the reply decodes to a response with
   batch count 1, exactly one item, the requested operation and status Success - and it is that item's payload *)
Theorem C14_payload_only_for_matching_success : forall T K c op payload reply p,
  snd (send T K c op payload reply) = SPayload p ->
  cc_connected c = true /\
  exists tag fl resp n st', T "Response" = Some (tag, fl) /\
    dec_top "Response" tag fl {| rest := reply; last := 0 |} = Ok (resp, n, st') /\ good_reply T K op resp p.
Proof. exact send_payload. Qed.
Print Assumptions C14_payload_only_for_matching_success.

Theorem C14_judge_iff : forall T K op resp p, judge T K op resp = SPayload p <-> good_reply T K op resp p.
Proof. exact judge_payload. Qed.
Print Assumptions C14_judge_iff.

(* a server error carries the server's reason and message and arises only from a single-item reply
   with the requested operation and a status other than Success *)
Theorem C14_server_error : forall T K op resp r m, judge T K op resp = SServerError r m ->
  get_field T (get_field T resp "Header") "BatchCount" = VInt 1 /\
  exists item st, get_field T resp "BatchItems" = VList (VCons item VNone) /\
    get_field T item "Operation" = VEnum op /\ get_field T item "ResultStatus" = VEnum st /\ st <> k_success K /\
    r = match get_field T item "ResultReason" with VEnum x => x | _ => 0%N end /\
    m = match get_field T item "ResultMessage" with VStr x => x | _ => nil end.
Proof. exact judge_server_error. Qed.
Print Assumptions C14_server_error.

Theorem C14_not_connected : forall T K c op payload reply,
  cc_connected c = false -> send T K c op payload reply = (nil, SError).
Proof. exact send_not_connected. Qed.
Print Assumptions C14_not_connected.

(* a payload that cannot be encoded (nil, typed nil, ...) is an error and nothing is sent *)
Theorem C14_unencodable_payload : forall T K c op payload reply,
  cc_connected c = true -> enc_top T (VPtr (build_request T c op payload)) = None ->
  snd (send T K c op payload reply) = SError /\ forall b, ~ In (CSent b) (fst (send T K c op payload reply)).
Proof. exact send_unencodable. Qed.
Print Assumptions C14_unencodable_payload.

(* DiscoverVersions returns versions only from a Discover Versions Response payload (checked assertion) *)
Theorem C14_discover_versions : forall T K c offer reply vs,
  snd (discover_versions T K c offer reply) = DVVersions vs ->
  exists fs, snd (send T K c (k_discover_versions K)
                    (set_field T (zero_struct T "DiscoverVersionsRequest") "ProtocolVersions"
                               (VList (vl_of_list (map (version_val T) offer)))) reply)
             = SPayload (VStruct "DiscoverVersionsResponse" fs).
Proof. exact discover_versions_versions. Qed.
Print Assumptions C14_discover_versions.

(* C15, client side: deadlines armed iff configured - write before the request, read before the reply *)
Theorem C14_client_deadlines : forall T K c op payload reply b,
  In (CSent b) (fst (send T K c op payload reply)) ->
  fst (send T K c op payload reply) =
    (if cc_write_to c then [CArmWrite] else []) ++ [CSent b] ++ (if cc_read_to c then [CArmRead] else []).
Proof. exact send_arms. Qed.
Print Assumptions C14_client_deadlines.

(* the life cycle of a Client value: after ANY history of Connect (succeeding or failing at any stage),
   Close and Send calls, Send never dereferences a missing connection or codec ... *)
Theorem C14_lifecycle_no_panic : forall ops, ~ In LPanic (clife_run clife0 ops).
Proof. intros ops. apply clife_run_no_panic. unfold clife_inv; cbn; discriminate. Qed.
Print Assumptions C14_lifecycle_no_panic.

(* ... and it returns the "not connected" error exactly when the last Connect/Close on this client was
   not a successful Connect; otherwise it performs the exchange judged by C14_payload_only_for_matching_success *)
Theorem C14_not_connected_after_any_history : forall ops,
  clife_run clife0 (ops ++ [CSend]) =
  (clife_run clife0 ops ++ [if connected_after false ops then LExchange else LErr])%list.
Proof. exact clife_send_after. Qed.
Print Assumptions C14_not_connected_after_any_history.

(* "any bytes, cut off anywhere", delivered in any way: the Client's Decoder on its bufio.Reader over a connection
   that hands out the reply in ANY script of read sizes (fewer than 100 consecutive empty reads) *)
Require Import Readers ReadersProofs ClientReaders.

(* the peer closes after its reply: Send returns exactly what the flat model (all theorems above) says for those bytes *)
Theorem C14_reply_fragmentation_independent : forall T K c op payload conn,
  transport_ok conn -> b_term conn = EOF ->
  c_send T K c op payload conn = send T K c op payload (b_data conn).
Proof. exact client_fragmentation_independent. Qed.
Print Assumptions C14_reply_fragmentation_independent.

(* the connection fails instead (reset, deadline: an I/O error at any offset): a payload or a server error is returned only
   if the bytes that did arrive are a complete reply saying so; a reply cut off by the failure yields an error *)
Theorem C14_cut_off_reply_safe : forall T K c op payload conn evs r,
  transport_ok conn ->
  c_send T K c op payload conn = (evs, r) -> r <> SError ->
  send T K c op payload (b_data conn) = (evs, r).
Proof. exact client_io_error_safe. Qed.
Print Assumptions C14_cut_off_reply_safe.

Example C14_transport_example :
  transport_ok {| b_data := [Byte.x42; Byte.x00; Byte.x7b]; b_sizes := [2; 0; 0; 1]%N; b_weof := false; b_term := EOF |}.
Proof. cbn. auto with arith. Qed.
