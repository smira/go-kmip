(* CodecRT.v - round trip of the codec model (C01, C06), with the hypotheses of C01: [fl_ok] / [sch_ok] /
   [env_ok] on the schema, [wf] on the value.  What the encoder emits for a well-formed
   value is, read by the specification of Denote.v, the normalised value ([spec_roundtrip]: no decoder
   state in it); the decoder accepts what the specification accepts (C04, [decoder_complete]); hence
   Decode(Encode v) = normalize v from a stream with arbitrary bytes after the message, consuming
   exactly the message and leaving no look-ahead.  That the normalised value encodes to the same bytes
   ([reencode_top]) is a separate induction over the value: it asks nothing of the value. *)
From Coq Require Import String.
From Coq Require Import List NArith ZArith Bool Lia.
Require Import Bytes BytesProofs Schema Codec TTLV CodecProofs Denote DenoteProofs.
Import ListNotations.
Open Scope N_scope.

Definition tag_ok (t : N) : Prop := t <> 0 /\ t < 2 ^ 24 /\ t <> ANY_TAG.

(* decoder positioned at the start of an item with tag [tag] whose bytes are [b], followed by [tl]:
   either nothing has been read yet, or exactly the tag has been peeked *)
Definition at_item (tag : N) (b tl : bytes) (s : dstate) : Prop :=
  s = {| rest := b ++ tl; last := 0 |} \/
  (exists b', b = be 3 tag ++ b' /\ s = {| rest := b' ++ tl; last := tag |}).

Lemma at_item_of_stream t b bs s : at_item t b [] s -> at_item t b bs {| rest := rest s ++ bs; last := last s |}.
Proof.
  intros [->|[b' [-> ->]]]; cbn [rest last].
  - left. rewrite app_nil_r. reflexivity.
  - right. exists b'. split; [reflexivity|]. rewrite app_nil_r. reflexivity.
Qed.

Lemma at_item_head tag it tl st : tag <> 0 -> tag < 2 ^ 24 -> at_item tag (raw it) tl st -> at_head it tl st.
Proof.
  intros Hz Hlt [->|(b' & Hb & ->)].
  - (* nothing is peeked *) apply at_head_fresh.
  - (* the tag is peeked *) split; [exact Hlt|]. rewrite logical_peeked by exact Hz. rewrite Hb. reflexivity.
Qed.

(* [b] is one item, carrying [tag], which the specification reads at a position of schema [s] as [v] *)
Definition denotes (b : bytes) (tag : N) (s : sch) (cur : vlist) (v : val) : Prop :=
  exists it, b = raw it /\ item_wf it /\ i_tag it = tag /\ interp_val s cur it = Some v.

(* C04 turns that into a statement about the decoder, wherever it stands in front of the item *)
Lemma denotes_decodes s a cur b v tl st :
  fa_tag a <> 0 -> fa_tag a < 2 ^ 24 -> denotes b (fa_tag a) s cur v -> at_item (fa_tag a) b tl st ->
  dec_value s a st cur = Ok (v, blen b, {| rest := tl; last := 0 |}).
Proof.
  intros Hz Hlt (it & -> & Hw & Ht & Hi) Hat. rewrite (raw_blen it Hw).
  apply (proj1 decoder_complete); auto. exact (at_item_head _ _ _ _ Hz Hlt Hat).
Qed.

Definition wf_prim (k : kind) (v : val) : Prop :=
  match k, v with
  | KInt, VInt z => (- 2 ^ 31 <= z < 2 ^ 31)%Z
  | KLong, VLong z | KTime, VTime z => (- 2 ^ 63 <= z < 2 ^ 63)%Z
  | KEnum, VEnum n => n < 2 ^ 32
  | KBool, VBool _ => True
  | KBytes, VBytes b | KStr, VStr b => blen b < 2 ^ 32
  | KDur, VDur ns => exists secs, (0 <= secs < 2 ^ 32)%Z /\ ns = (secs * nanos)%Z     (* intervals of 0 .. 2^32-1 seconds *)
  | _, _ => False
  end.

(* two's complement on 2h values (h = 2^31, 2^63): the residue of z is z itself or z + 2h, and its side of h tells which.
   [h] is an N so that lia meets [Z.of_N h] and not [Z.to_N h]; the two instances hold by conversion. *)
Lemma twos_complement (h : N) z : let m := (2 * Z.of_N h)%Z in (- Z.of_N h <= z < Z.of_N h)%Z ->
  let n := Z.to_N (z mod m) in (if n <? h then Z.of_N n else (Z.of_N n - m)%Z) = z.
Proof.
  intros m H n. subst n m.
  destruct (Z.lt_ge_cases z 0) as [Hn|Hp].
  - replace (z mod (2 * Z.of_N h))%Z with (z + 2 * Z.of_N h)%Z by (apply (Z.mod_unique _ _ (-1)); lia).
    destruct (N.ltb_spec (Z.to_N (z + 2 * Z.of_N h)) h); lia.
  - rewrite Z.mod_small by lia. destruct (N.ltb_spec (Z.to_N z) h); lia.
Qed.

Lemma of_to_u32 z : (- 2 ^ 31 <= z < 2 ^ 31)%Z -> of_u32 (to_u32 z) = z.
Proof. exact (twos_complement (2 ^ 31) z). Qed.

Lemma of_to_u64 z : (- 2 ^ 63 <= z < 2 ^ 63)%Z -> of_u64 (to_u64 z) = z.
Proof. exact (twos_complement (2 ^ 63) z). Qed.

Lemma to_u32_lt z : to_u32 z < 2 ^ 32.
Proof. unfold to_u32. pose proof (Z.mod_pos_bound z (2 ^ 32) eq_refl). lia. Qed.
Lemma to_u64_lt z : to_u64 z < 2 ^ 64.
Proof. unfold to_u64. pose proof (Z.mod_pos_bound z (2 ^ 64) eq_refl). lia. Qed.

Definition leaf_item (tag typ : N) (pb : bytes) : item :=
  {| i_tag := tag; i_typ := typ; i_len := blen pb; i_val := pb; i_pad := zeros (N.to_nat (pad8 (blen pb))) |}.

Lemma prim_bytes_denote k v pb tag : wf_prim k v -> prim_bytes k v = Some pb ->
  blen pb < 2 ^ 32 /\ prim_of_item k (leaf_item tag (type_code k) pb) = Some v.
Proof.
  unfold prim_of_item, leaf_item. cbn [i_len i_val]. rewrite N.eqb_refl. cbn [negb].
  (* the [cbn] evaluates prim_of_item's test of the length, [blen (be n _)] being n; a bound [_ < 256 ^ N.of_nat n] is the
     bound at hand by conversion ([lia] would take the numerals 2^32, 2^64 apart) *)
  destruct k, v; try discriminate; cbn [wf_prim]; intros Hwf [= <-]; rewrite ?blen_be; cbn [N.of_nat N.eqb Pos.eqb Pos.of_succ_nat Pos.succ].
  - rewrite unbe_be0 by exact (to_u32_lt z). rewrite of_to_u32 by exact Hwf. split; reflexivity.
  - rewrite unbe_be0 by exact (to_u64_lt z). rewrite of_to_u64 by exact Hwf. split; reflexivity.
  - rewrite unbe_be0 by exact Hwf. split; reflexivity.
  - split; [reflexivity|destruct b; reflexivity].
  - split; [assumption|reflexivity].
  - split; [assumption|reflexivity].
  - rewrite unbe_be0 by exact (to_u64_lt sec). rewrite of_to_u64 by exact Hwf. split; reflexivity.
  - (* Dur: whole seconds *) destruct Hwf as (secs & Hs & ->). rewrite Z.quot_mul by discriminate.
    rewrite unbe_be0 by exact (to_u32_lt secs). split; [reflexivity|].
    unfold to_u32. rewrite Z.mod_small by exact Hs. rewrite Z2N.id by exact (proj1 Hs). reflexivity.
Qed.

Lemma enc_prim_denotes k tag v b cur : tag < 2 ^ 24 -> wf_prim k v -> enc_prim tag k v = Some b ->
  denotes b tag (SPrim k) cur v.
Proof.
  rewrite enc_prim_ser. unfold prim_item. intros Hlt Hwf He.
  destruct (prim_bytes k v) as [pb|] eqn:Ep; [|discriminate]. injection He as <-.
  destruct (prim_bytes_denote k v pb tag Hwf Ep) as [Hl Hp].
  exists (leaf_item tag (type_code k) pb). split; [|split; [|split; [reflexivity|exact Hp]]].
  - unfold leaf_item. cbn [ser i_tag i_typ i_len i_val i_pad]. reflexivity.
  - unfold item_wf, leaf_item. cbn [i_tag i_typ i_len i_val i_pad]. rewrite blen_zeros, N2Nat.id.
    repeat split; auto. apply type_code_lt.
Qed.

(* Decode(Encode v) for a primitive *)
Lemma dec_prim_enc k tag v b tl st :
  tag <> 0 -> tag < 2 ^ 24 -> wf_prim k v -> enc_prim tag k v = Some b -> at_item tag b tl st ->
  dec_prim k tag st = Ok (v, blen b, {| rest := tl; last := 0 |}).
Proof.
  intros Hz Hlt Hwf He Hat.
  exact (denotes_decodes (SPrim k) (top_attr tag) VNone b v tl st Hz Hlt (enc_prim_denotes k tag v b VNone Hlt Hwf He) Hat).
Qed.

Definition on_wire (a : fattr) : bool := negb ((fa_tag a =? ANY_TAG) || fa_skip a).

Fixpoint all_tags (fl : flist) : list N :=
  match fl with FNil => [] | FCons a _ r => fa_tag a :: all_tags r end.

Fixpoint fl_app (a b : flist) : flist :=
  match a with FNil => b | FCons x s r => FCons x s (fl_app r b) end.
Fixpoint vl_app (a b : vlist) : vlist :=
  match a with VNone => b | VCons x r => VCons x (vl_app r b) end.
Fixpoint fl_len (fl : flist) : nat := match fl with FNil => O | FCons _ _ r => S (fl_len r) end.

Fixpoint fl_nth (fl : flist) (i : nat) : option (fattr * sch) :=
  match fl, i with
  | FNil, _ => None
  | FCons a s _, O => Some (a, s)
  | FCons _ _ r, S j => fl_nth r j
  end.

Fixpoint lookup_case (cs : dcases) (key : val) : option sch :=
  match cs with
  | DNil => None
  | DCase k s r => if key_matches k key then Some s else lookup_case r key
  end.

(* a discriminating sibling: an Enumeration or Text String field that is always what was written *)
Definition key_field (x : option (fattr * sch)) : Prop :=
  match x with
  | Some (a, SPrim k) => (k = KEnum \/ k = KStr) /\ fa_slice a = false /\ on_wire a = true
  | _ => False
  end.

  (* per-field conditions: [pfl] = the fields declared before this one *)
  Fixpoint sch_ok (T : tyenv) (s : sch) : Prop :=
    match s with
    | SPrim _ => True
    | SStruct _ fl => fl_ok T FNil fl
    | SDyn _ _ cs => cases_ok T cs
    end
  with fl_ok (T : tyenv) (pfl fl : flist) : Prop :=
    match fl with
    | FNil => True
    | FCons a s r =>
        ((fa_tag a = ANY_TAG /\ fa_skip a = true /\ fa_req a = false /\ r = FNil) \/
         (tag_ok (fa_tag a) /\ ~ In (fa_tag a) (all_tags r) /\ (fa_skip a = true -> fa_req a = false))) /\
        (match s with
         | SDyn _ ki _ => fa_slice a = false /\ key_field (fl_nth pfl ki)
         | _ => True
         end) /\
        sch_ok T s /\ fl_ok T (fl_app pfl (FCons a s FNil)) r
    end
  with cases_ok (T : tyenv) (cs : dcases) : Prop :=
    match cs with
    | DNil => True
    | DCase _ s r =>
        match s with
        | SPrim _ => True
        | SStruct ty fl => (exists tag, T ty = Some (tag, fl)) /\ fl_ok T FNil fl
        | SDyn _ _ _ => False
        end /\ cases_ok T r
    end.

  Definition env_ok (T : tyenv) : Prop := forall ty tag fl, T ty = Some (tag, fl) -> fl_ok T FNil fl.

  Definition key_of (s : sch) (prev : vlist) : val :=
    match s with SDyn _ ki _ => vl_nth ki prev | _ => VNil end.

  (* an optional value that is omitted because it is zero: zero all the way down, with the schema's type names *)
  Fixpoint zero_like (s : sch) (v : val) {struct s} : Prop :=
    match s with
    | SPrim k => prim_is_zero k v = true
    | SStruct ty fl => match v with VStruct ty' vs => ty' = ty /\ zero_like_fields fl vs | _ => False end
    | SDyn _ _ _ => v = VNil
    end
  with zero_like_fields (fl : flist) (vs : vlist) {struct fl} : Prop :=
    match fl, vs with
    | FNil, VNone => True
    | FCons a s r, VCons v vr =>
        (if (fa_tag a =? ANY_TAG) || fa_skip a then True
         else if fa_slice a then v = VList VNone else zero_like s v) /\ zero_like_fields r vr
    | _, _ => False
    end.

  (* well-formed KMIP message values: typed per schema, dynamic payloads agreeing with the dispatch
     table applied to the discriminating sibling, required sequences non-empty, sizes below 2^32 *)
  Fixpoint wf (T : tyenv) (s : sch) (key : val) (v : val) {struct v} : Prop :=
    match s with
    | SPrim k => wf_prim k v
    | SStruct ty fl =>
        match v with
        | VStruct ty' vs =>
            ty' = ty /\ wf_fields T fl VNone vs /\
            exists body, enc_fields T fl vs = Some body /\ blen body < 2 ^ 32
        | _ => False
        end
    | SDyn _ _ cs =>
        match v with
        | VNil => True                     (* an absent optional payload *)
        | VStruct ty vs | VPtr (VStruct ty vs) =>
            exists tag fl, T ty = Some (tag, fl) /\ lookup_case cs key = Some (SStruct ty fl) /\
                           wf_fields T fl VNone vs /\
                           exists body, enc_fields T fl vs = Some body /\ blen body < 2 ^ 32
        | VInt _ => lookup_case cs key = Some (SPrim KInt) /\ wf_prim KInt v
        | VLong _ => lookup_case cs key = Some (SPrim KLong) /\ wf_prim KLong v
        | VEnum _ => lookup_case cs key = Some (SPrim KEnum) /\ wf_prim KEnum v
        | VBool _ => lookup_case cs key = Some (SPrim KBool) /\ wf_prim KBool v
        | VBytes _ => lookup_case cs key = Some (SPrim KBytes) /\ wf_prim KBytes v
        | VStr _ => lookup_case cs key = Some (SPrim KStr) /\ wf_prim KStr v
        | VTime _ => lookup_case cs key = Some (SPrim KTime) /\ wf_prim KTime v
        | VDur _ => lookup_case cs key = Some (SPrim KDur) /\ wf_prim KDur v
        | _ => False
        end
    end
  with wf_fields (T : tyenv) (fl : flist) (prev : vlist) (vs : vlist) {struct vs} : Prop :=
    match fl, vs with
    | FNil, VNone => True
    | FCons a s r, VCons v vr =>
        (if on_wire a then
           if fa_slice a then
             match v with
             | VList es => wf_elems T s es /\ (fa_req a = true -> es <> VNone)
             | _ => False
             end
           else if negb (fa_req a) && is_zero s v then zero_like s v    (* omitted *)
           else wf T s (key_of s prev) v
         else True) /\
        wf_fields T r (vl_snoc prev v) vr
    | _, _ => False
    end
  with wf_elems (T : tyenv) (s : sch) (es : vlist) {struct es} : Prop :=
    match es with
    | VNone => True
    | VCons e er => wf T s VNil e /\ wf_elems T s er
    end.

  (* Decode(Encode v): what the top-level hypothesis of C01 says about a message value *)
  Definition wf_top (T : tyenv) (ty : string) (v : val) : Prop :=
    exists tag fl, T ty = Some (tag, fl) /\ wf T (SStruct ty fl) VNil v.

Lemma enc_value_prim T k tag v : enc_value T (SPrim k) tag v = enc_prim tag k v.
Proof. destruct v; reflexivity. Qed.

(* whatever the encoder emits for a value begins with the tag it was given, and is a whole header at least *)
Lemma enc_prim_starts tag k v b : enc_prim tag k v = Some b -> exists b', b = be 3 tag ++ b' /\ 5 <= blen b'.
Proof.
  unfold enc_prim. destruct k, v; try discriminate; intros H; injection H as <-; unfold header;
    rewrite <- !app_assoc; eexists; (split; [reflexivity|]); rewrite !blen_app, !blen_be; lia.
Qed.

Lemma enc_dyn_prim_starts tag v b : enc_dyn_prim tag v = Some b -> exists b', b = be 3 tag ++ b' /\ 5 <= blen b'.
Proof. unfold enc_dyn_prim. destruct v; try discriminate; apply enc_prim_starts. Qed.

Lemma wrap_starts tag body : exists b', wrap tag body = be 3 tag ++ b' /\ 5 <= blen b'.
Proof. unfold wrap, header. rewrite <- !app_assoc. eexists; split; [reflexivity|]. rewrite !blen_app, !blen_be. lia. Qed.

Lemma enc_value_starts T s tag v b : enc_value T s tag v = Some b -> exists b', b = be 3 tag ++ b' /\ 5 <= blen b'.
Proof.
  destruct s as [k|ty fl|h ki cs].
  - rewrite enc_value_prim. apply enc_prim_starts.
  - destruct v; cbn [enc_value]; try discriminate. destruct (enc_fields T fl fs); cbn [obind]; [|discriminate].
    intros H; injection H as <-. apply wrap_starts.
  - destruct v; cbn [enc_value]; try discriminate; try apply enc_dyn_prim_starts.
    + destruct (T ty) as [d|]; cbn [obind]; [|discriminate]. destruct (enc_fields T (snd d) fs); cbn [obind]; [|discriminate].
      intros H; injection H as <-. apply wrap_starts.
    + destruct v; try discriminate; try apply enc_dyn_prim_starts.
      destruct (T ty) as [d|]; cbn [obind]; [|discriminate]. destruct (enc_fields T (snd d) fs); cbn [obind]; [|discriminate].
      intros H; injection H as <-. apply wrap_starts.
Qed.

Lemma enc_elems_starts T s tag es b : enc_elems T s tag es = Some b ->
  (es = VNone /\ b = []) \/ (es <> VNone /\ exists b', b = be 3 tag ++ b').
Proof.
  destruct es as [|e er]; cbn [enc_elems].
  - intros H; injection H as <-. left; auto.
  - destruct (enc_value T s tag e) as [b1|] eqn:E; cbn [obind]; [|discriminate].
    destruct (enc_elems T s tag er) as [b2|]; cbn [obind]; [|discriminate].
    intros H; injection H as <-. right. split; [discriminate|].
    destruct (enc_value_starts _ _ _ _ _ E) as [b' [-> _]]. rewrite <- app_assoc. eauto.
Qed.

(* the first item of an encoded field list carries the tag of one of the fields *)
Lemma enc_fields_first T : forall vs fl body, enc_fields T fl vs = Some body ->
  body = [] \/ exists t b', body = be 3 t ++ b' /\ In t (all_tags fl) /\ t <> ANY_TAG.
Proof.
  induction vs as [|v vr IH]; intros fl body H; destruct fl as [|a s r]; cbn [enc_fields] in H; try discriminate.
  - injection H as <-. left; reflexivity.
  - destruct ((fa_tag a =? ANY_TAG) || fa_skip a) eqn:Esk.
    { destruct (IH _ _ H) as [->|[t [b' [-> [Hin Hne]]]]]; [left; reflexivity|]. right. exists t, b'. cbn; auto. }
    assert (Hne: fa_tag a <> ANY_TAG).
    { apply orb_false_iff in Esk. destruct Esk as [E _]. apply N.eqb_neq in E. exact E. }
    destruct (fa_slice a).
    { destruct v; try discriminate.
      destruct (enc_elems T s (fa_tag a) vs) as [b1|] eqn:E1; cbn [obind] in H; [|discriminate].
      destruct (enc_fields T r vr) as [b2|] eqn:E2; cbn [obind] in H; [|discriminate]. injection H as <-.
      destruct (enc_elems_starts _ _ _ _ _ E1) as [[_ ->]|[_ [b' ->]]].
      - cbn [app]. destruct (IH _ _ E2) as [->|[t [b' [-> [Hin Hn]]]]]; [left; reflexivity|]. right. exists t, b'. cbn; auto.
      - right. exists (fa_tag a), (b' ++ b2). rewrite <- app_assoc. cbn; auto. }
    destruct (negb (fa_req a) && is_zero s v).
    { destruct (IH _ _ H) as [->|[t [b' [-> [Hin Hn]]]]]; [left; reflexivity|]. right. exists t, b'. cbn; auto. }
    destruct (enc_value T s (fa_tag a) v) as [b1|] eqn:E1; cbn [obind] in H; [|discriminate].
    destruct (enc_fields T r vr) as [b2|] eqn:E2; cbn [obind] in H; [|discriminate]. injection H as <-.
    destruct (enc_value_starts _ _ _ _ _ E1) as [b' [-> _]]. right. exists (fa_tag a), (b' ++ b2).
    rewrite <- app_assoc. cbn; auto.
Qed.

Lemma vl_set_app_len p x y q : vl_set (vl_length p) x (vl_app p (VCons y q)) = vl_app p (VCons x q).
Proof. induction p as [|z r IH]; cbn; [reflexivity|]. rewrite IH. reflexivity. Qed.

Lemma vl_set_app_len_eq i p x y q : i = vl_length p -> vl_set i x (vl_app p (VCons y q)) = vl_app p (VCons x q).
Proof. intros ->. apply vl_set_app_len. Qed.

Lemma vl_nth_app_lt p q i : (i < vl_length p)%nat -> vl_nth i (vl_app p q) = vl_nth i p.
Proof. revert i; induction p as [|z r IH]; intros i H; cbn in *; [lia|]. destruct i; [reflexivity|]. apply IH. lia. Qed.

Lemma vl_app_snoc p x q : vl_app (vl_snoc p x) q = vl_app p (VCons x q).
Proof. induction p as [|z r IH]; cbn; [reflexivity|]. rewrite IH. reflexivity. Qed.

Lemma vl_app_snoc_nil acc x : vl_app acc (VCons x VNone) = vl_snoc acc x.
Proof. induction acc as [|y r IH]; cbn; [reflexivity|]. rewrite IH. reflexivity. Qed.

Lemma vl_length_snoc p x : vl_length (vl_snoc p x) = S (vl_length p).
Proof. induction p as [|z r IH]; cbn; [reflexivity|]. rewrite IH. reflexivity. Qed.

Lemma fl_len_app a b : fl_len (fl_app a b) = (fl_len a + fl_len b)%nat.
Proof. induction a as [|x s r IH]; cbn; [reflexivity|]. rewrite IH. reflexivity. Qed.

Lemma vl_app_nil p : vl_app p VNone = p.
Proof. induction p as [|z r IH]; cbn; [reflexivity|]. rewrite IH. reflexivity. Qed.

Lemma normalize_prim T k v : normalize T (SPrim k) v = v.
Proof. destruct v; reflexivity. Qed.

Lemma normalize_fields_length T : forall vs fl, vl_length (normalize_fields T fl vs) = vl_length vs.
Proof.
  induction vs as [|v vr IH]; intros fl; destruct fl as [|a s r]; cbn [normalize_fields vl_length]; try reflexivity.
  rewrite IH. reflexivity.
Qed.

Definition norm_field (T : tyenv) (a : fattr) (s : sch) (v : val) : val :=
  if (fa_tag a =? ANY_TAG) || fa_skip a then (if fa_slice a then VList VNone else zero_of s)
  else if fa_slice a then match v with VList es => VList (normalize_elems T s es) | _ => v end
  else normalize T s v.

Lemma normalize_fields_cons T a s r v vr :
  normalize_fields T (FCons a s r) (VCons v vr) = VCons (norm_field T a s v) (normalize_fields T r vr).
Proof. reflexivity. Qed.

Lemma normalize_fields_snoc T : forall prev pfl a s v,
  vl_length prev = fl_len pfl ->
  normalize_fields T (fl_app pfl (FCons a s FNil)) (vl_snoc prev v) = vl_snoc (normalize_fields T pfl prev) (norm_field T a s v).
Proof.
  induction prev as [|p pr IH]; intros pfl a s v Hl; destruct pfl as [|pa ps prl]; cbn in Hl; try discriminate.
  - reflexivity.
  - cbn [fl_app vl_snoc]. rewrite normalize_fields_cons. rewrite IH by lia. reflexivity.
Qed.

(* a discriminating sibling keeps its value through normalisation, and the decoder sees it in the struct under construction *)
Lemma key_nth T : forall pfl prev ki q,
  vl_length prev = fl_len pfl -> key_field (fl_nth pfl ki) ->
  vl_nth ki (vl_app (normalize_fields T pfl prev) q) = vl_nth ki prev.
Proof.
  induction pfl as [|a s r IH]; intros prev ki q Hl Hk.
  - contradiction.
  - destruct prev as [|p pr]; cbn in Hl; [discriminate|].
    rewrite normalize_fields_cons. destruct ki as [|kj].
    + destruct s as [k| |]; try contradiction. destruct Hk as [_ [Hsl How]].
      unfold norm_field. apply negb_true_iff in How. rewrite How, Hsl.
      apply normalize_prim.
    + cbn [vl_nth]. apply IH; [lia|exact Hk].
Qed.

Lemma zeros_of_cons a s r : zeros_of (FCons a s r) = VCons (if fa_slice a then VList VNone else zero_of s) (zeros_of r).
Proof. reflexivity. Qed.

Lemma prim_zero_value k v : prim_is_zero k v = true -> v = zero_prim k.
Proof.
  destruct k, v; try discriminate; intros H.
  - apply Z.eqb_eq in H. subst. reflexivity.
  - apply Z.eqb_eq in H. subst. reflexivity.
  - apply N.eqb_eq in H. subst. reflexivity.
  - destruct b; [discriminate|reflexivity].
  - destruct b; [reflexivity|discriminate].
  - destruct b; [reflexivity|discriminate].
  - apply Z.eqb_eq in H. subst. reflexivity.
  - apply Z.eqb_eq in H. subst. reflexivity.
Qed.

(* an optional field that is omitted because it is zero decodes (by not being there) to what it normalises to *)
Lemma is_zero_normalize T :
  (forall s v, zero_like s v -> normalize T s v = zero_of s) /\
  (forall fl vs, zero_like_fields fl vs -> normalize_fields T fl vs = zeros_of fl) /\
  (forall cs : dcases, True).
Proof.
  apply sch_mutind.
  - intros k v Hz. rewrite normalize_prim. apply prim_zero_value. exact Hz.
  - intros ty fl IH v Hz. destruct v; cbn [zero_like] in Hz; try contradiction.
    destruct Hz as [-> Hf]. cbn [normalize zero_of]. f_equal. apply IH. exact Hf.
  - intros h ki cs _ v Hz. cbn [zero_like] in Hz. subst. reflexivity.
  - intros vs Hz. destruct vs; [reflexivity|contradiction].
  - intros a s IHs r IHr vs Hz. destruct vs as [|v vr]; [contradiction|].
    destruct Hz as [Hv Hr]. rewrite normalize_fields_cons, zeros_of_cons. f_equal; [|apply IHr; exact Hr].
    unfold norm_field. destruct ((fa_tag a =? ANY_TAG) || fa_skip a); [reflexivity|].
    destruct (fa_slice a); [subst; reflexivity|apply IHs; exact Hv].
  - exact I.
  - intros; exact I.
Qed.

(* [body] is a run of items, the first under the tag of a field of [fl], that [match_fields] matches
   against [fl] (numbered from [i], stored into [cur]) completely, with result [vs] *)
Definition denote_fields (body : bytes) (fl : flist) (i : nat) (cur vs : vlist) : Prop :=
  exists its, body = flat_raw its /\ Forall item_wf its /\ match its with [] => True | h :: _ => In (i_tag h) (all_tags fl) end /\
              match_fields fl i cur its = Some (vs, []).

Definition denote_elems (b : bytes) (tag : N) (s : sch) (cur es : vlist) : Prop :=
  exists its vs, b = flat_raw its /\ Forall item_wf its /\ Forall (fun it => i_tag it = tag) its /\
                 map_opt (interp_val s cur) its = Some vs /\ vl_of_list vs = es.

(* the items of the fields after [a] are not taken for [a] *)
Definition later (a : fattr) (r : flist) : Prop :=
  forall t, In t (all_tags r) -> (t =? fa_tag a) || (fa_tag a =? ANY_TAG) = false.

Lemma fl_ok_tags T : forall fl pfl t, fl_ok T pfl fl -> In t (all_tags fl) -> t <> ANY_TAG -> tag_ok t.
Proof.
  induction fl as [|a s r IH]; intros pfl t Hok Hin Hne; cbn [all_tags] in Hin; [contradiction|].
  cbn [fl_ok] in Hok. destruct Hok as [Hc [_ [_ Hr]]]. destruct Hin as [<-|Hin].
  - destruct Hc as [[E _]|[Hok _]]; [contradiction|exact Hok].
  - eapply IH; eauto.
Qed.

Lemma fl_ok_head T pfl a s r : fl_ok T pfl (FCons a s r) ->
  later a r /\
  (if on_wire a then tag_ok (fa_tag a) /\ ~ In (fa_tag a) (all_tags r) /\ fa_skip a = false else fa_req a = false).
Proof.
  unfold on_wire. intros ([(Ea & Esk & Hq & ->)|(Htag & Hnin & Hq)] & _).
  - (* the any-tag field: nothing comes after it, and it is never on the wire *)
    split; [intros t []|]. rewrite Ea. exact Hq.
  - (* a proper tag *) destruct Htag as (Hz & Hlt & Hany). split.
    + (* which no later field carries *)
      intros t Hin. apply orb_false_iff. split; apply N.eqb_neq; [intros ->; contradiction|exact Hany].
    + (* on the wire unless skipped *)
      destruct (N.eqb_spec (fa_tag a) ANY_TAG) as [E|_]; [contradiction|].
      cbn [orb]. destruct (fa_skip a); cbn [negb]; [exact (Hq eq_refl)|]. repeat split; assumption.
Qed.

Lemma denote_absent a s r i cur body vs :
  fa_req a = false -> later a r -> denote_fields body r (S i) cur vs -> denote_fields body (FCons a s r) i cur vs.
Proof.
  intros Hq Hl (its & -> & Hw & Ht & Hm). exists its. split; [reflexivity|]. split; [exact Hw|].
  cbn [match_fields]. destruct its as [|it its']; [rewrite Hq; auto|]. split; [right; exact Ht|].
  unfold item_for. rewrite (Hl _ Ht), andb_false_r, Hq. exact Hm.
Qed.

Lemma denote_single a s r i cur b body v vs :
  fa_slice a = false -> fa_skip a = false -> fa_tag a <> 0 ->
  denotes b (fa_tag a) s cur v -> denote_fields body r (S i) (vl_set i v cur) vs ->
  denote_fields (b ++ body) (FCons a s r) i cur vs.
Proof.
  intros Hsl Hsk Hz (it & -> & Hwi & Hti & Hi) (its & -> & Hw & _ & Hm). exists (it :: its).
  split; [reflexivity|]. split; [constructor; assumption|]. split; [left; symmetry; exact Hti|].
  cbn [match_fields]. unfold item_for. rewrite Hti, N.eqb_refl, Hsl, Hsk, Hi.
  destruct (N.eqb_spec (fa_tag a) 0); [contradiction|]. exact Hm.
Qed.

Lemma denote_run a s r i cur b body es vs :
  fa_slice a = true -> fa_skip a = false -> fa_tag a <> 0 -> ~ In (fa_tag a) (all_tags r) ->
  denote_elems b (fa_tag a) s cur es -> es <> VNone ->
  denote_fields body r (S i) (vl_set i (VList es) cur) vs ->
  denote_fields (b ++ body) (FCons a s r) i cur vs.
Proof.
  intros Hsl Hsk Hz Hnin (ies & ves & -> & Hwe & Hte & Hmap & <-) Hne (its & -> & Hw & Ht & Hm).
  destruct ies as [|it ies]; [injection Hmap as <-; contradiction|].
  exists ((it :: ies) ++ its). pose proof (Forall_inv Hte) as Hti. apply Forall_inv_tail in Hte.
  split; [symmetry; apply flat_raw_app|]. split; [apply Forall_app; split; assumption|]. split; [left; symmetry; exact Hti|].
  cbn [app match_fields]. unfold item_for. rewrite Hti, N.eqb_refl, Hsl, Hsk.
  destruct (N.eqb_spec (fa_tag a) 0); [contradiction|]. cbn [negb orb andb].
  rewrite (proj2 (span_tag_spec _ _ ies its)).
  - rewrite Hmap. exact Hm.
  - split; [reflexivity|]. split; [exact Hte|]. destruct its as [|h its']; [exact I|].
    intros E. rewrite E in Ht. contradiction.
Qed.

Lemma denotes_struct tag ty fl cur body vs :
  tag < 2 ^ 24 -> blen body < 2 ^ 32 -> denote_fields body fl 0 (zeros_of fl) vs ->
  denotes (wrap tag body) tag (SStruct ty fl) cur (VStruct ty vs).
Proof.
  intros Hlt Hlen (its & -> & Hws & _ & Hm). pose proof (flat_raw_mod8 its Hws) as M.
  exists {| i_tag := tag; i_typ := tc_structure; i_len := blen (flat_raw its); i_val := flat_raw its; i_pad := [] |}.
  split; [unfold raw; cbn [i_tag i_typ i_len i_val]; rewrite app_nil_r; reflexivity|].
  split; [unfold item_wf, pad8; cbn [i_tag i_typ i_len i_val i_pad]; rewrite M; repeat split; auto|].
  split; [reflexivity|].
  cbn [interp_val i_typ i_val]. rewrite split_items_raw, Hm by assumption. reflexivity.
Qed.

Lemma dec_cases_lookup cs key a st :
  dec_cases cs key a st = match lookup_case cs key with Some s => dec_value s a st VNone | None => Err end.
Proof. induction cs as [|k s r IH]; cbn [dec_cases lookup_case]; [reflexivity|]. destruct (key_matches k key); auto. Qed.

Lemma interp_cases_lookup cs key it :
  interp_cases cs key it = match lookup_case cs key with Some s => interp_val s VNone it | None => None end.
Proof. induction cs as [|k s r IH]; cbn [interp_cases lookup_case]; [reflexivity|]. destruct (key_matches k key); auto. Qed.

Definition deref (v : val) : val := match v with VPtr v' => v' | _ => v end.

Section RT.
  Variable T : tyenv.
  Hypothesis Henv : env_ok T.

  (* a dynamic position behaves like the static position the dispatch table selects, a pointer payload like its target *)
  Lemma wf_dyn h ki cs key tag v b : wf T (SDyn h ki cs) key v -> enc_value T (SDyn h ki cs) tag v = Some b ->
    exists s, lookup_case cs key = Some s /\ sch_ok T s /\ wf T s (key_of s VNone) (deref v) /\
              enc_value T s tag (deref v) = Some b /\ normalize T (SDyn h ki cs) v = normalize T s (deref v).
  Proof.
    intros Hwf He. destruct v as [| | | | | | | |ty vs| | |v|]; cbn [wf] in Hwf; try contradiction.
    1-8: (* a primitive: the table gives its kind *)
      destruct Hwf as [Hl Hw]; eexists; split; [exact Hl|]; split; [exact I|]; auto.
    2: (* VNil is not encoded *) discriminate He.
    2: (* VPtr: to a structure, or not well-formed *) destruct v as [| | | | | | | |ty vs| | | |]; try contradiction.
    all: (* VStruct, VPtr (VStruct): the table gives its type, which the environment knows *)
      destruct Hwf as (tag0 & fl & HT & Hl & Hwf & Hb); cbn [enc_value normalize] in *; rewrite HT in *;
      exists (SStruct ty fl); split; [exact Hl|]; split; [exact (Henv _ _ _ HT)|]; cbn [wf deref]; auto.
  Qed.

  Definition R_sch (s : sch) : Prop := forall tag cur v b,
    sch_ok T s -> tag_ok tag -> wf T s (key_of s cur) v -> enc_value T s tag v = Some b ->
    denotes b tag s cur (normalize T s v).

  Definition R_fl (fl : flist) : Prop := forall pfl prev vs body,
    fl_ok T pfl fl -> vl_length prev = fl_len pfl -> wf_fields T fl prev vs -> enc_fields T fl vs = Some body ->
    denote_fields body fl (fl_len pfl) (vl_app (normalize_fields T pfl prev) (zeros_of fl))
                  (vl_app (normalize_fields T pfl prev) (normalize_fields T fl vs)).

  Definition R_cs (cs : dcases) : Prop := forall key s, lookup_case cs key = Some s -> R_sch s.

  Lemma spec_struct ty fl : R_fl fl -> R_sch (SStruct ty fl).
  Proof.
    intros IH tag cur v b Hs (Hz & Hlt & _) Hwf He.
    destruct v; cbn [wf] in Hwf; try contradiction. destruct Hwf as (-> & Hwf & body & Eb & Hlen).
    cbn [enc_value] in He. rewrite Eb in He. injection He as <-.
    apply denotes_struct; auto. exact (IH FNil VNone fs body Hs eq_refl Hwf Eb).
  Qed.

  Lemma spec_dyn h ki cs : R_cs cs -> R_sch (SDyn h ki cs).
  Proof.
    intros IH tag cur v b _ Htag Hwf He. cbn [key_of] in Hwf.
    destruct (wf_dyn _ _ _ _ _ _ _ Hwf He) as (s & Hl & Hs & Hw & He' & ->).
    destruct (IH _ _ Hl tag VNone (deref v) b Hs Htag Hw He') as (it & -> & Hwi & Hti & Hi).
    exists it. refine (conj eq_refl (conj Hwi (conj Hti _))). cbn [interp_val].
    rewrite interp_cases_lookup, Hl. exact Hi.
  Qed.

  Lemma spec_elems s tag cur : R_sch s -> sch_ok T s -> tag_ok tag -> key_of s cur = VNil ->
    forall es b, wf_elems T s es -> enc_elems T s tag es = Some b -> denote_elems b tag s cur (normalize_elems T s es).
  Proof.
    intros IH Hs Htag Hk. induction es as [|e er IHe]; intros b Hwf He; cbn [enc_elems normalize_elems] in *.
    - injection He as <-. exists [], []. repeat split; constructor.
    - destruct Hwf as [Hwe Hwr].
      destruct (enc_value T s tag e) as [b1|] eqn:E1; [|discriminate].
      destruct (enc_elems T s tag er) as [b2|]; [|discriminate]. injection He as <-.
      rewrite <- Hk in Hwe. destruct (IH tag cur e b1 Hs Htag Hwe E1) as (it & -> & Hwi & Hti & Hi).
      destruct (IHe b2 Hwr eq_refl) as (its & vs & -> & Hws & Hts & Hm & Hv).
      exists (it :: its), (normalize T s e :: vs). rewrite <- Hv. cbn [map_opt]. rewrite Hi, Hm.
      repeat split; constructor; assumption.
  Qed.

  Lemma spec_cons a s r : R_sch s -> R_fl r -> R_fl (FCons a s r).
  Proof.
    intros IHs IHr pfl prev vs body Hok Hl Hwf He.
    destruct vs as [|v vr]; [contradiction|]. destruct Hwf as [Hwv Hwr].
    destruct (fl_ok_head _ _ _ _ _ Hok) as [Hlater Hhead]. destruct Hok as (_ & Hdyn & Hs & Hr).
    set (P := normalize_fields T pfl prev).
    assert (HPlen: fl_len pfl = vl_length P) by (unfold P; rewrite normalize_fields_length; auto).
    rewrite normalize_fields_cons, zeros_of_cons.
    (* the fields after this one, once its slot holds its value *)
    assert (Hrest: forall body_r, enc_fields T r vr = Some body_r ->
              denote_fields body_r r (S (fl_len pfl)) (vl_app P (VCons (norm_field T a s v) (zeros_of r)))
                            (vl_app P (VCons (norm_field T a s v) (normalize_fields T r vr)))).
    { intros body_r Her. specialize (IHr (fl_app pfl (FCons a s FNil)) (vl_snoc prev v) vr body_r Hr).
      rewrite vl_length_snoc, fl_len_app, normalize_fields_snoc, !vl_app_snoc in IHr by assumption.
      rewrite Nat.add_1_r in IHr. auto. }
    cbn [enc_fields] in He. unfold on_wire in Hwv, Hhead. unfold norm_field in *.
    destruct ((fa_tag a =? ANY_TAG) || fa_skip a); cbn [negb] in Hwv, Hhead.
    { (* never on the wire *) apply denote_absent; [exact Hhead|exact Hlater|exact (Hrest _ He)]. }
    destruct Hhead as (Htag & Hnin & Hskip). pose proof (proj1 Htag) as Htz.
    destruct (fa_slice a) eqn:Esl.
    { (* a sequence: nothing on the wire if it is empty, a run of its elements if not *)
      destruct v as [| | | | | | | | |es| | |]; try contradiction. destruct Hwv as [Hwe Hne].
      apply obind_some in He as (b & Eb & He). apply obind_some in He as (body_r & Er & He). injection He as <-.
      destruct es as [|e er].
      - injection Eb as <-. apply denote_absent; [|exact Hlater|exact (Hrest _ Er)].
        destruct (fa_req a); [exfalso; apply Hne; reflexivity|reflexivity].
      - apply (denote_run a s r _ _ b body_r (normalize_elems T s (VCons e er))); auto.
        + apply spec_elems; auto. (* no key: a dynamic position is not a sequence *)
          destruct s; [reflexivity|reflexivity|destruct Hdyn as [E _]; congruence].
        + discriminate.
        + rewrite (vl_set_app_len_eq _ _ _ _ _ HPlen). exact (Hrest _ Er). }
    destruct (negb (fa_req a) && is_zero s v) eqn:Ez.
    { (* optional and zero: omitted; what it normalises to is what the empty slot holds *)
      apply andb_true_iff in Ez. destruct Ez as [Hq _]. apply negb_true_iff in Hq.
      rewrite (proj1 (is_zero_normalize T) s v Hwv) in Hrest |- *.
      apply denote_absent; [exact Hq|exact Hlater|exact (Hrest _ He)]. }
    destruct (enc_value T s (fa_tag a) v) as [bv|] eqn:Ev; [|discriminate].
    destruct (enc_fields T r vr) as [body_r|]; [|discriminate]. injection He as <-.
    apply (denote_single a s r _ _ bv body_r (normalize T s v)); auto.
    - apply IHs; auto.
      (* a dynamic field: the specification reads the key from the normalised prefix, wf from the original (key_nth) *)
      destruct s as [| |h ki cs]; try exact Hwv. destruct Hdyn as [_ Hkf]. cbn [key_of].
      unfold P. rewrite key_nth by assumption. exact Hwv.
    - rewrite (vl_set_app_len_eq _ _ _ _ _ HPlen). exact (Hrest _ eq_refl).
  Qed.

  Theorem spec_roundtrip : (forall s, R_sch s) /\ (forall fl, R_fl fl) /\ (forall cs, R_cs cs).
  Proof.
    apply sch_mutind.
    - intros k tag cur v b _ (_ & Hlt & _) Hwf He. rewrite enc_value_prim in He. rewrite normalize_prim.
      apply enc_prim_denotes; auto. destruct v; exact Hwf.
    - exact spec_struct.
    - exact spec_dyn.
    - intros pfl prev vs body _ _ Hwf He. destruct vs; [|contradiction].
      injection He as <-. exists []. repeat split; constructor.
    - intros a s IHs r IHr. exact (spec_cons a s r IHs IHr).
    - intros key s H. discriminate H.
    - intros k s IHs r IHr key s' H. cbn [lookup_case] in H. destruct (key_matches k key); [|exact (IHr _ _ H)].
      injection H as <-. exact IHs.
  Qed.

  (* Decode(Encode v) at any position: the normalised value, exactly the item consumed, no look-ahead left *)
  Corollary value_roundtrip s a cur v b tl st :
    sch_ok T s -> tag_ok (fa_tag a) -> wf T s (key_of s cur) v -> enc_value T s (fa_tag a) v = Some b ->
    at_item (fa_tag a) b tl st ->
    dec_value s a st cur = Ok (normalize T s v, blen b, {| rest := tl; last := 0 |}).
  Proof.
    intros Hs Htag Hwf He. pose proof (proj1 spec_roundtrip s _ cur v b Hs Htag Hwf He) as Hd.
    destruct Htag as (Hz & Hlt & _). exact (denotes_decodes s a cur b _ tl st Hz Hlt Hd).
  Qed.
End RT.

Section Top.
  Variable T : tyenv.
  Hypothesis Henv : env_ok T.

  (* Decode(Encode v) on a stream: the normalised value, exactly the message consumed, no look-ahead left,
     whatever bytes follow *)
  Theorem roundtrip_top ty tag fl vs b tl :
    T ty = Some (tag, fl) -> tag_ok tag -> wf T (SStruct ty fl) VNil (VStruct ty vs) ->
    enc_top T (VStruct ty vs) = Some b ->
    dec_top ty tag fl {| rest := b ++ tl; last := 0 |}
    = Ok (VStruct ty (normalize_fields T fl vs), blen b, {| rest := tl; last := 0 |}).
  Proof.
    intros HT Htag Hwf He. unfold enc_top in He. rewrite HT in He.
    exact (value_roundtrip T Henv (SStruct ty fl) (top_attr tag) VNone _ b tl _ (Henv _ _ _ HT) Htag Hwf He (or_introl eq_refl)).
  Qed.

  Lemma enc_top_ptr ty vs : enc_top T (VPtr (VStruct ty vs)) = enc_top T (VStruct ty vs).
  Proof. reflexivity. Qed.

  (* several messages back to back on one decoder: returned one by one, in order, normalised; then io.EOF *)
  Theorem stream_roundtrip ty tag fl : T ty = Some (tag, fl) -> tag_ok tag ->
    forall ms bs fuel,
      Forall2 (fun vs b => wf T (SStruct ty fl) VNil (VStruct ty vs) /\ enc_top T (VStruct ty vs) = Some b) ms bs ->
      (length ms < fuel)%nat ->
      dec_stream fuel ty tag fl {| rest := concat bs; last := 0 |}
      = (map (fun vs => VStruct ty (normalize_fields T fl vs)) ms, SEOF).
  Proof.
    intros HT Htag ms bs fuel H. revert fuel. induction H as [|vs b ms bs [Hwf He] _ IH]; intros fuel Hf.
    - destruct fuel; [lia|reflexivity].
    - destruct fuel; [lia|]. cbn [dec_stream concat].
      rewrite (roundtrip_top ty tag fl vs b (concat bs) HT Htag Hwf He).
      rewrite IH by (cbn in Hf; lia). reflexivity.
  Qed.
End Top.

Lemma is_zero_norm_true T :
  (forall s v, is_zero s v = true -> is_zero s (normalize T s v) = true) /\
  (forall fl vs, fields_zero fl vs = true -> fields_zero fl (normalize_fields T fl vs) = true) /\
  (forall cs : dcases, True).
Proof.
  apply sch_mutind.
  - intros k v H. rewrite normalize_prim. exact H.
  - intros ty fl IH v H. destruct v; try discriminate. apply IH. exact H.
  - intros h ki cs _ v H. destruct v; cbn [is_zero] in H; try discriminate. reflexivity.
  - intros vs _. reflexivity.
  - intros a s IHs r IHr vs H. destruct vs as [|v vr]; cbn [fields_zero] in H; [discriminate|].
    apply andb_prop in H as [Hv Hr]. rewrite normalize_fields_cons. cbn [fields_zero].
    rewrite (IHr _ Hr), andb_true_r. unfold norm_field.
    destruct ((fa_tag a =? ANY_TAG) || fa_skip a); [reflexivity|].
    destruct (fa_slice a).
    + destruct v; try discriminate. destruct vs; [reflexivity|discriminate].
    + apply IHs. exact Hv.
  - exact I.
  - intros; exact I.
Qed.

Section ReEnc.
  Variable T : tyenv.

  (* Without the hypothesis that the value encodes neither half holds: [VPtr VNil] in an optional dynamic position is not zero and
     not encodable, its normal form [VNil] is zero and omitted. *)
  Definition reenc_value (v : val) : Prop :=
    forall s tag b, enc_value T s tag v = Some b ->
      enc_value T s tag (normalize T s v) = Some b /\ is_zero s (normalize T s v) = is_zero s v.

  Definition reenc_fields (vs : vlist) : Prop :=
    forall fl b, enc_fields T fl vs = Some b ->
      enc_fields T fl (normalize_fields T fl vs) = Some b /\ fields_zero fl (normalize_fields T fl vs) = fields_zero fl vs.

  Definition reenc_elems (es : vlist) : Prop :=
    forall s tag b, enc_elems T s tag es = Some b -> enc_elems T s tag (normalize_elems T s es) = Some b.

  Lemma reenc_prim_case v : (forall s, normalize T s v = v) -> reenc_value v.
  Proof. intros Hn s tag b H. rewrite Hn. split; [exact H|reflexivity]. Qed.

  Lemma reenc_mut : (forall v, reenc_value v) /\ (forall vs, reenc_fields vs) /\ (forall es, reenc_elems es).
  Proof.
    apply val_ind3.
    - (* no parts: normalisation leaves the value alone *)
      intros v Hv. apply reenc_prim_case. intros s. destruct s, v; try reflexivity; contradiction.
    - (* VStruct *) intros ty fs Hf s tag b H.
      destruct s as [k|ty' fl|h ki cs]; cbn [enc_value normalize is_zero] in *.
      + destruct k; discriminate.
      + apply obind_some in H as (body & E & H). destruct (Hf fl body E) as [-> ->]. split; [exact H|reflexivity].
      + apply obind_some in H as (d & HT & H). apply obind_some in H as (body & E & H).
        rewrite HT. cbn [enc_value]. rewrite HT. cbn [obind]. destruct (Hf (snd d) body E) as [-> _]. split; [exact H|reflexivity].
    - (* VList *) intros vs _. apply reenc_prim_case. intros s; destruct s; reflexivity.
    - (* VPtr: the target, which is a structure or a primitive *) intros v IH s tag b H.
      destruct s as [k|ty' fl|h ki cs]; [destruct k; discriminate|discriminate|].
      destruct v; try discriminate; try (split; [exact H|reflexivity]).
      destruct (IH (SDyn h ki cs) tag b H) as [He _]. split; [exact He|]. cbn [normalize]. destruct (T ty); reflexivity.
    - (* fields *) intros fl b H. destruct fl; [|discriminate]. split; [exact H|reflexivity].
    - intros v vr IHv IHl IHf fl b H. destruct fl as [|a s r]; [discriminate|].
      rewrite normalize_fields_cons. cbn [enc_fields fields_zero] in *. unfold norm_field.
      destruct ((fa_tag a =? ANY_TAG) || fa_skip a); [exact (IHf r b H)|].
      destruct (fa_slice a).
      { destruct v; try discriminate.
        apply obind_some in H as (b1 & E1 & H). apply obind_some in H as (b2 & E2 & H).
        rewrite (IHl _ eq_refl s (fa_tag a) b1 E1). destruct (IHf r b2 E2) as [-> ->].
        split; [exact H|destruct vs; reflexivity]. }
      destruct (negb (fa_req a) && is_zero s v) eqn:Ez.
      { (* omitted, and omitted again *) apply andb_prop in Ez as [Hq Hzv].
        rewrite (proj1 (is_zero_norm_true T) s v Hzv), Hq, Hzv. exact (IHf r b H). }
      apply obind_some in H as (b1 & E1 & H). apply obind_some in H as (b2 & E2 & H).
      destruct (IHv s (fa_tag a) b1 E1) as [-> ->]. destruct (IHf r b2 E2) as [-> ->]. rewrite Ez.
      split; [exact H|reflexivity].
    - intros s tag b H. exact H.
    - intros v vr IHv IHe s tag b H. cbn [enc_elems normalize_elems] in *.
      apply obind_some in H as (b1 & E1 & H). apply obind_some in H as (b2 & E2 & H).
      destruct (IHv s tag b1 E1) as [-> _]. rewrite (IHe s tag b2 E2). exact H.
  Qed.

  (* encoding the decoded value again reproduces the identical bytes *)
  Theorem reencode_top ty tag fl vs b :
    T ty = Some (tag, fl) -> enc_top T (VStruct ty vs) = Some b ->
    enc_top T (VStruct ty (normalize_fields T fl vs)) = Some b.
  Proof.
    intros HT H. unfold enc_top in *. rewrite HT in *. cbn [obind snd fst] in *.
    apply obind_some in H as (body & E & H). destruct (proj1 (proj2 reenc_mut) vs fl body E) as [-> _]. exact H.
  Qed.
End ReEnc.
